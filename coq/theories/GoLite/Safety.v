(* Safety facts about ANY GoLite program (so in particular about every translated generated file):
   no condition panics, and package-level sentinels are written only by an explicit ASetGlobalValue. *)
From GV Require Import Base.Bytes GoLite.Syntax GoLite.Sem.
From GV Require Import Helpers.UuidProofs Helpers.EmailProofs Helpers.UrlProofs.

Lemma helper_total h s : exists b, helper_model h s = Ok b.
Proof.
  destruct h; cbn [helper_model].
  - apply IsValidEmail_total.
  - apply IsValidURL_total.
  - apply IsValidUUID_total.
  - eauto.
  - eauto.
Qed.

(* C17, conditions: evaluation yields a boolean or is ill-typed, never a panic *)
Theorem eval_cond_no_panic ipc cur c : eval_cond ipc cur c <> CPanic.
Proof.
  induction c; cbn [eval_cond].
  - destruct (eval_operand cur a), (eval_operand cur b); try discriminate. destruct (cmp_cv op c c0); discriminate.
  - destruct (eval_cond ipc cur c) as [[|]| |]; congruence.
  - destruct (eval_cond ipc cur c1) as [[|]| |], (eval_cond ipc cur c2) as [[|]| |]; congruence.
  - destruct (eval_cond ipc cur c1) as [[|]| |], (eval_cond ipc cur c2) as [[|]| |]; congruence.
  - destruct (get_path cur [f]) as [v|]; [destruct v|]; try discriminate.
    destruct (helper_total h s) as [r Hr]. rewrite Hr. discriminate.
  - destruct (get_path cur [f]) as [v|]; [destruct v|]; discriminate.
  - discriminate.
Qed.

Lemma items_no_panic ipc ctx tbl root l sh s o :
  run_items ipc ctx tbl root l sh s = inr o -> o_res o <> RPanic.
Proof.
  intros H P. destruct (items_early _ _ _ _ _ _ _ _ H) as [(k & _ & E)|[E|(_ & cur & c & E)]]; try congruence.
  exact (eval_cond_no_panic _ _ _ E).
Qed.

(* C17: a file with the nil guard never panics, whatever the receiver, the field values and the context *)
Theorem exec_no_panic ipc ctx f recv : f_nilguard f <> None -> o_res (exec_file ipc ctx f recv) <> RPanic.
Proof.
  intro G. unfold exec_file. destruct recv as [root|].
  - destruct (run_items ipc ctx _ root (f_items f) [] st0) as [s|o] eqn:E.
    + destruct (f_tail_ok f); [destruct (s_errs s)|]; discriminate.
    + eapply items_no_panic. exact E.
  - destruct (f_nilguard f); [discriminate|congruence].
Qed.

(* C16: writes to package-level state *)
Definition action_writes_global (a : action) : bool := match a with ASetGlobalValue _ _ => true | _ => false end.

Fixpoint item_writes_global (i : item) : bool :=
  match i with
  | ICheck _ acts => existsb action_writes_global acts
  | IBlock body => (fix go (l : list item) : bool := match l with [] => false | x :: r => item_writes_global x || go r end) body
  | _ => false
  end.

Definition file_writes_global (f : file) : bool := existsb item_writes_global (f_items f).

Lemma item_writes_global_block body : item_writes_global (IBlock body) = existsb item_writes_global body.
Proof. destruct body; reflexivity. Qed.

Lemma actions_keep_gw tbl v acts :
  existsb action_writes_global acts = false -> forall s s', run_actions tbl v acts s = Some s' -> s_gw s' = s_gw s.
Proof.
  induction acts as [|a r IH]; intros W s s' R; cbn [run_actions] in R; [congruence|].
  apply orb_false_iff in W as [Wa Wr]. destruct (run_action tbl v a s) as [s1|] eqn:A; [|discriminate].
  rewrite (IH Wr _ _ R). destruct (run_action_frame _ _ _ _ _ A) as [_ [G|(var & f & ->)]]; [exact G|discriminate Wa].
Qed.

Lemma items_keep_gw ipc ctx tbl root l : existsb item_writes_global l = false -> forall sh s,
  match run_items ipc ctx tbl root l sh s with
  | inl s' => s_gw s' = s_gw s
  | inr o => s_gw (o_st o) = s_gw s
  end.
Proof.
  induction l as [|r IH|p r IH|c acts r IH|body r IHb IH] using items_ind; intros W sh s; cbn [run_items].
  - reflexivity.
  - cbn [run_item]. destruct (ctx (s_calls s)); [reflexivity|exact (IH W sh (bump s 1))].
  - exact (IH W _ _).
  - apply orb_false_iff in W as [Wa Wr]. cbn [run_item]. destruct (get_path root sh) as [cur|]; [|reflexivity].
    destruct (eval_cond ipc cur c) as [[|]| |]; try reflexivity; [|exact (IH Wr _ _)].
    destruct (run_actions tbl cur acts s) as [s1|] eqn:R; [|reflexivity].
    rewrite <- (actions_keep_gw _ _ _ Wa _ _ R). exact (IH Wr sh (Build_st _ _ _ _ _)).
  - apply orb_false_iff in W as [Wb Wr]. rewrite run_block.
    specialize (IHb Wb sh s). destruct (run_items ipc ctx tbl root body sh s) as [s1|o]; [|exact IHb].
    rewrite <- IHb. exact (IH Wr _ _).
Qed.

(* a file without ASetGlobalValue leaves every package-level sentinel untouched, on every receiver,
   every context and every outcome; the receiver itself is not even in the state the program can write *)
Theorem exec_no_global_writes ipc ctx f recv :
  file_writes_global f = false -> s_gw (o_st (exec_file ipc ctx f recv)) = [].
Proof.
  intro W. unfold exec_file. destruct recv as [root|]; [|destruct (f_nilguard f); reflexivity].
  pose proof (items_keep_gw ipc ctx (sentinel_table (f_decls f)) root _ W [] st0) as B.
  destruct (run_items ipc ctx _ root (f_items f) [] st0); exact B.
Qed.
