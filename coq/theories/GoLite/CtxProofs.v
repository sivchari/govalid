(* The context contract, for ANY GoLite program (in particular for translated generated files):
   a run either returns what the second ctx.Err() call of some poll yields, or behaves exactly as
   with a context that is never done. *)
From GV Require Import Base.Bytes GoLite.Syntax GoLite.Sem.

Lemma run_actions_calls tbl v acts : forall s s', run_actions tbl v acts s = Some s' -> s_calls s' = s_calls s.
Proof.
  induction acts as [|a r IH]; intros s s' R; cbn [run_actions] in R; [congruence|].
  destruct (run_action tbl v a s) as [s1|] eqn:A; [|discriminate].
  rewrite (IH _ _ R). apply (run_action_frame _ _ _ _ _ A).
Qed.

Section Ctx.
  Variable ipc : bytes -> ipclass.
  Variable ctx : nat -> option ctxerr.
  Variable tbl : list (ident * (bytes * bytes)).

  Definition is_ctx_return (o : outcome) : Prop := exists k, o_res o = RCtx (ctx (S k)) /\ ctx k <> None /\ s_calls (o_st o) = S (S k).

  (* every ctx.Err() call of a run that fell through returned nil *)
  Definition quiet (a b : nat) : Prop := forall j, a <= j < b -> ctx j = None.

  Lemma quiet_trans a b c : quiet a b -> quiet b c -> quiet a c.
  Proof. intros Q1 Q2 j Hj. destruct (Nat.lt_ge_cases j b); [apply Q1|apply Q2]; lia. Qed.

  (* the run is compared with the run of the same program from the same state under [background]:
     as long as every poll is quiet the two are in step *)
  Lemma items_contract root l : forall sh s,
    match run_items ipc ctx tbl root l sh s with
    | inr o => is_ctx_return o \/ run_items ipc background tbl root l sh s = inr o
    | inl s' => run_items ipc background tbl root l sh s = inl s' /\ quiet (s_calls s) (s_calls s')
    end.
  Proof.
    induction l as [|r IH|p r IH|c acts r IH|body r IHb IH] using items_ind; intros sh s; cbn [run_items].
    - split; [reflexivity|]. intros j Hj. lia.
    - cbn [run_item background]. destruct (ctx (s_calls s)) eqn:E.
      + left. exists (s_calls s). cbn. split; [reflexivity|]. split; [congruence|lia].
      + specialize (IH sh (bump s 1)). destruct (run_items ipc ctx tbl root r sh (bump s 1)); [|exact IH].
        destruct IH as [E2 Q]. split; [exact E2|]. apply (quiet_trans _ (s_calls (bump s 1))); [|exact Q].
        cbn. intros j Hj. replace j with (s_calls s) by lia. exact E.
    - apply IH.
    - cbn [run_item]. destruct (get_path root sh) as [cur|]; [|right; reflexivity].
      destruct (eval_cond ipc cur c) as [[|]| |]; try (right; reflexivity); [|apply IH].
      destruct (run_actions tbl cur acts s) as [s1|] eqn:R; [|right; reflexivity].
      rewrite <- (run_actions_calls _ _ _ _ _ R). exact (IH sh (Build_st _ _ _ _ _)).
    - rewrite !run_block. specialize (IHb sh s). destruct (run_items ipc ctx tbl root body sh s) as [s1|o].
      + destruct IHb as [-> Q1]. specialize (IH sh s1). destruct (run_items ipc ctx tbl root r sh s1); [|exact IH].
        destruct IH as [E2 Q2]. split; [exact E2|]. exact (quiet_trans _ _ _ Q1 Q2).
      + destruct IHb as [H| ->]; auto.
  Qed.
End Ctx.

Lemma background_items_early ipc tbl root l sh s o :
  run_items ipc background tbl root l sh s = inr o -> o_res o = RStuck \/ o_res o = RPanic.
Proof.
  intro H. destruct (items_early _ _ _ _ _ _ _ _ H) as [(k & N & _)|[E|[E _]]]; [contradiction N; reflexivity|auto..].
Qed.

(* ValidateContext returns exactly what ctx.Err() returned when it observed the context done
   (the partial report is discarded); otherwise the outcome is identical to the run with
   context.Background(), and then every Err() call it made returned nil *)
Theorem ctx_contract ipc ctx f recv :
  let o := exec_file ipc ctx f recv in
  let b := exec_file ipc background f recv in
  (exists k, o_res o = RCtx (ctx (S k)) /\ ctx k <> None /\ s_calls (o_st o) = S (S k)) \/
  (o = b /\ forall j, j < s_calls (o_st b) -> ctx j = None) \/
  (o = b /\ (o_res b = RStuck \/ o_res b = RPanic)).
Proof.
  unfold exec_file. destruct recv as [root|].
  - pose proof (items_contract ipc ctx (sentinel_table (f_decls f)) root (f_items f) [] st0) as H.
    destruct (run_items ipc ctx _ root (f_items f) [] st0) as [s|o].
    + destruct H as [-> Q]. right. left. split; [reflexivity|]. intros j Hj. apply Q. cbn in *. lia.
    + destruct H as [H|H]; [left; exact H|]. rewrite H.
      right. right. split; [reflexivity|]. eapply background_items_early. exact H.
  - destruct (f_nilguard f); right; left; (split; [reflexivity|]); cbn; intros j Hj; lia.
Qed.
