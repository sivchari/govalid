(* GoLite: the fragment of Go that govalid emits (and plausible deviations from it),
   as a deep embedding. harness/internal/golite (run as `genharness translate`) translates generated files into these terms;
   Gen/Template.v produces them from a declaration. *)
From GV Require Import Base.Bytes Base.GoFloat.

Definition ident := bytes.

(* a numeric constant, as converted by the Go compiler to each type it may be compared with *)
Record numlit := { nl_int : option Z;     (* Some z when the constant is an integer *)
                   nl_f32 : Z;            (* bits of float32(c) *)
                   nl_f64 : Z }.          (* bits of float64(c) *)

Inductive operand :=
| OField (f : ident)              (* t.F *)
| OLen (f : ident)                (* len(t.F) *)
| ORuneCount (f : ident)          (* utf8.RuneCountInString(t.F) *)
| ONum (n : numlit)
| OStr (s : bytes)
| ONil
| OBool (b : bool)
| OZeroComplex.                   (* 0.0i *)

Inductive helper := HEmail | HURL | HUUID | HAlpha | HNumeric.

Inductive cond :=
| CCmp (op : cmpop) (a b : operand)
| CNot (c : cond)
| CAnd (a b : cond)
| COr (a b : cond)
| CHelper (h : helper) (f : ident)    (* validationhelper.IsValidX(t.F) *)
| CIp (want_v4 : bool) (f : ident)    (* ip := net.ParseIP(t.F); ip == nil || ip.To4() ==/!= nil *)
| CRaw (text : bytes).                (* anything else (CEL): opaque here *)

Inductive action :=
| ACopy (var : ident)                 (* err := ErrX *)
| ASetValue (f : ident)               (* err.Value = t.F *)
| ASetGlobalValue (var f : ident)     (* ErrX.Value = t.F  -- never emitted; representable so it can be caught *)
| AAppend.                            (* errs = append(errs, err) *)

Inductive item :=
| IPoll                               (* if ctx.Err() != nil { return ctx.Err() } *)
| IShadow (path : list ident)         (* t := t.A.B *)
| ICheck (c : cond) (acts : list action)
| IBlock (body : list item).

Inductive vdecl :=
| DAssert (iface : bytes) (tname : ident)        (* _ govalid.Validator = ( *T)(nil) *)
| DNil (name : ident)                            (* ErrNilT = errors.New(...) *)
| DSentinel (name : ident) (path ty : bytes)     (* ErrX = govaliderrors.ValidationError{Reason, Path, Type} *)
| DAlias (name target : ident).                  (* legacy name = new name *)

Record file := {
  f_type : ident;
  f_decls : list vdecl;
  f_nilguard : option ident;       (* if t == nil { return <ident> } *)
  f_items : list item;
  f_tail_ok : bool;                (* if len(errs) > 0 { return errs }; return nil *)
  f_wrappers_ok : bool             (* ValidateT, Validate, ValidateContext delegate as documented *)
}.

(* file_eqb decides the per-run certificates "translated output = gen_file d" *)
Definition ident_eqb := bytes_eqb.

Definition optZ_eqb (a b : option Z) : bool :=
  match a, b with Some x, Some y => Z.eqb x y | None, None => true | _, _ => false end.

Definition numlit_eqb (a b : numlit) : bool :=
  optZ_eqb (nl_int a) (nl_int b) && Z.eqb (nl_f32 a) (nl_f32 b) && Z.eqb (nl_f64 a) (nl_f64 b).

Definition cmpop_eqb (a b : cmpop) : bool :=
  match a, b with
  | OpEq, OpEq | OpNe, OpNe | OpLt, OpLt | OpLe, OpLe | OpGt, OpGt | OpGe, OpGe => true
  | _, _ => false
  end.

Definition operand_eqb (a b : operand) : bool :=
  match a, b with
  | OField x, OField y | OLen x, OLen y | ORuneCount x, ORuneCount y => ident_eqb x y
  | ONum x, ONum y => numlit_eqb x y
  | OStr x, OStr y => bytes_eqb x y
  | ONil, ONil | OZeroComplex, OZeroComplex => true
  | OBool x, OBool y => Bool.eqb x y
  | _, _ => false
  end.

Definition helper_eqb (a b : helper) : bool :=
  match a, b with
  | HEmail, HEmail | HURL, HURL | HUUID, HUUID | HAlpha, HAlpha | HNumeric, HNumeric => true
  | _, _ => false
  end.

Fixpoint cond_eqb (a b : cond) : bool :=
  match a, b with
  | CCmp o x y, CCmp o' x' y' => cmpop_eqb o o' && operand_eqb x x' && operand_eqb y y'
  | CNot x, CNot y => cond_eqb x y
  | CAnd x y, CAnd x' y' | COr x y, COr x' y' => cond_eqb x x' && cond_eqb y y'
  | CHelper h f, CHelper h' f' => helper_eqb h h' && ident_eqb f f'
  | CIp v f, CIp v' f' => Bool.eqb v v' && ident_eqb f f'
  | CRaw t, CRaw t' => bytes_eqb t t'
  | _, _ => false
  end.

Definition action_eqb (a b : action) : bool :=
  match a, b with
  | ACopy x, ACopy y | ASetValue x, ASetValue y => ident_eqb x y
  | ASetGlobalValue x f, ASetGlobalValue y g => ident_eqb x y && ident_eqb f g
  | AAppend, AAppend => true
  | _, _ => false
  end.

Fixpoint list_eqb {A} (e : A -> A -> bool) (a b : list A) : bool :=
  match a, b with
  | [], [] => true
  | x :: a', y :: b' => e x y && list_eqb e a' b'
  | _, _ => false
  end.

Fixpoint item_eqb (a b : item) : bool :=
  match a, b with
  | IPoll, IPoll => true
  | IShadow p, IShadow q => list_eqb ident_eqb p q
  | ICheck c x, ICheck d y => cond_eqb c d && list_eqb action_eqb x y
  | IBlock x, IBlock y =>
      (fix go (x y : list item) : bool :=
         match x, y with
         | [], [] => true
         | i :: x', j :: y' => item_eqb i j && go x' y'
         | _, _ => false
         end) x y
  | _, _ => false
  end.

Definition vdecl_eqb (a b : vdecl) : bool :=
  match a, b with
  | DAssert i t, DAssert i' t' => bytes_eqb i i' && ident_eqb t t'
  | DNil n, DNil n' => ident_eqb n n'
  | DSentinel n p t, DSentinel n' p' t' => ident_eqb n n' && bytes_eqb p p' && bytes_eqb t t'
  | DAlias n t, DAlias n' t' => ident_eqb n n' && ident_eqb t t'
  | _, _ => false
  end.

Definition optid_eqb (a b : option ident) : bool :=
  match a, b with Some x, Some y => ident_eqb x y | None, None => true | _, _ => false end.

Definition file_eqb (a b : file) : bool :=
  ident_eqb (f_type a) (f_type b) && list_eqb vdecl_eqb (f_decls a) (f_decls b) &&
  optid_eqb (f_nilguard a) (f_nilguard b) && list_eqb item_eqb (f_items a) (f_items b) &&
  Bool.eqb (f_tail_ok a) (f_tail_ok b) && Bool.eqb (f_wrappers_ok a) (f_wrappers_ok b).

Lemma item_ind' (P : item -> Prop) :
  P IPoll -> (forall p, P (IShadow p)) -> (forall c acts, P (ICheck c acts)) ->
  (forall body, Forall P body -> P (IBlock body)) -> forall i, P i.
Proof.
  intros HP HS HC HB. fix IH 1. intros [|p|c acts|body]; [exact HP|apply HS|apply HC|apply HB].
  induction body as [|x r IHr]; constructor; [apply IH|exact IHr].
Qed.

(* a program is a list of items whose blocks are programs: a property of programs is proved once,
   with the body of a leading block as one more induction hypothesis *)
Lemma items_ind (Q : list item -> Prop) :
  Q [] -> (forall r, Q r -> Q (IPoll :: r)) -> (forall p r, Q r -> Q (IShadow p :: r)) ->
  (forall c acts r, Q r -> Q (ICheck c acts :: r)) ->
  (forall body r, Q body -> Q r -> Q (IBlock body :: r)) -> forall l, Q l.
Proof.
  intros HN HP HS HC HB.
  assert (step : forall i r, Q r -> Q (i :: r)).
  { induction i as [|p|c acts|body IH] using item_ind'; auto.
    intros r. apply HB. induction IH; auto. }
  induction l; auto.
Qed.

Lemma list_eqb_Forall {A} (e : A -> A -> bool) a :
  Forall (fun x => forall y, e x y = true -> x = y) a -> forall b, list_eqb e a b = true -> a = b.
Proof.
  induction 1 as [|x a Hx _ IH]; intros [|y b] H; try discriminate; [reflexivity|].
  apply andb_true_iff in H as [H1 H2]. f_equal; auto.
Qed.

Lemma list_eqb_eq {A} (e : A -> A -> bool) :
  (forall x y, e x y = true -> x = y) -> forall a b, list_eqb e a b = true -> a = b.
Proof. intros He a. apply list_eqb_Forall, Forall_forall. intros x _. apply He. Qed.

Lemma ident_eqb_eq x y : ident_eqb x y = true -> x = y.
Proof. apply bytes_eqb_eq. Qed.

#[local] Hint Resolve -> Z.eqb_eq : eqb.
#[local] Hint Resolve list_eqb_eq ident_eqb_eq Bool.eqb_prop : eqb.

(* Both sides are built by the same constructor and the test is the conjunction of the tests of
   the components: conclude componentwise, by the soundness lemmas collected in [eqb]. *)
Local Ltac eqb_sound :=
  cbn; try discriminate; let H := fresh in intro H;
  repeat match type of H with _ && _ = true => apply andb_prop in H as [H ?] end;
  f_equal; eauto with eqb.

Lemma optZ_eqb_eq a b : optZ_eqb a b = true -> a = b.
Proof. destruct a, b; eqb_sound. Qed.

#[local] Hint Resolve optZ_eqb_eq : eqb.

Lemma numlit_eqb_eq a b : numlit_eqb a b = true -> a = b.
Proof. destruct a, b; unfold numlit_eqb; eqb_sound. Qed.

Lemma cmpop_eqb_eq a b : cmpop_eqb a b = true -> a = b.
Proof. destruct a, b; eqb_sound. Qed.

#[local] Hint Resolve numlit_eqb_eq cmpop_eqb_eq : eqb.

Lemma operand_eqb_eq a b : operand_eqb a b = true -> a = b.
Proof. destruct a, b; eqb_sound. Qed.

Lemma helper_eqb_eq a b : helper_eqb a b = true -> a = b.
Proof. destruct a, b; eqb_sound. Qed.

#[local] Hint Resolve operand_eqb_eq helper_eqb_eq : eqb.

Lemma cond_eqb_eq a : forall b, cond_eqb a b = true -> a = b.
Proof. induction a; intros []; eqb_sound. Qed.

Lemma action_eqb_eq a b : action_eqb a b = true -> a = b.
Proof. destruct a, b; eqb_sound. Qed.

#[local] Hint Resolve cond_eqb_eq action_eqb_eq : eqb.

Lemma item_eqb_block x y : item_eqb (IBlock x) (IBlock y) = list_eqb item_eqb x y.
Proof. revert y. induction x as [|i x IH]; intros [|j y]; try reflexivity. cbn in *. rewrite IH. reflexivity. Qed.

Lemma item_eqb_eq a : forall b, item_eqb a b = true -> a = b.
Proof.
  induction a as [| | |body IH] using item_ind'; intros []; [eqb_sound..|].
  rewrite item_eqb_block. intro H. f_equal. exact (list_eqb_Forall _ _ IH _ H).
Qed.

Lemma vdecl_eqb_eq a b : vdecl_eqb a b = true -> a = b.
Proof. destruct a, b; eqb_sound. Qed.

Lemma optid_eqb_eq a b : optid_eqb a b = true -> a = b.
Proof. destruct a, b; eqb_sound. Qed.

#[local] Hint Resolve item_eqb_eq vdecl_eqb_eq optid_eqb_eq : eqb.

Theorem file_eqb_eq a b : file_eqb a b = true -> a = b.
Proof. destruct a, b; unfold file_eqb; eqb_sound. Qed.
