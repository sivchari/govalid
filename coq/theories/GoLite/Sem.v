(* Big-step semantics of GoLite programs: what Validate<T>Context computes. *)
From GV Require Import Base.Bytes Base.Utf8 Base.GoFloat GoLite.Syntax.
From GV Require Import Helpers.Uuid Helpers.Email Helpers.Url Helpers.Alnum.

Inductive value :=
| VInt (z : Z)                          (* every integer kind; in range of its type *)
| VF32 (bits : Z)
| VF64 (bits : Z)
| VComplex (is_zero : bool)
| VBool (b : bool)
| VStr (s : bytes)
| VNilable (isnil : bool)               (* pointer, interface, func, unsafe.Pointer *)
| VColl (isnil : bool) (len : nat)      (* slice, map, chan *)
| VArr (len : nat)
| VStruct (fs : list (ident * value))
| VOpaque.

Fixpoint get_field (fs : list (ident * value)) (f : ident) : option value :=
  match fs with
  | [] => None
  | (n, v) :: r => if bytes_eqb n f then Some v else get_field r f
  end.

Fixpoint get_path (v : value) (p : list ident) : option value :=
  match p with
  | [] => Some v
  | f :: r => match v with
              | VStruct fs => match get_field fs f with Some w => get_path w r | None => None end
              | _ => None
              end
  end.

Lemma get_path1 cur f : get_path (VStruct cur) [f] = get_field cur f.
Proof. cbn. destruct (get_field cur f); reflexivity. Qed.

Lemma get_path_app v p q : get_path v (p ++ q) = match get_path v p with Some w => get_path w q | None => None end.
Proof.
  revert v. induction p as [|f p IH]; intro v; [reflexivity|]. cbn [app get_path].
  destruct v; try reflexivity. destruct (get_field fs f); [apply IH|reflexivity].
Qed.

Inductive ctxerr := Canceled | DeadlineExceeded.

Record entry := { e_sentinel : ident; e_path : bytes; e_type : bytes; e_value : option value }.

Inductive result :=
| RNil
| RErr (name : ident)                 (* a package-level error variable, e.g. ErrNilT *)
| RCtx (e : option ctxerr)            (* the value of the second ctx.Err() call *)
| RReport (es : list entry)
| RPanic
| RStuck.                             (* ill-typed / not representable: the file would not compile *)

Record st := {
  s_errs : list entry;
  s_calls : nat;                      (* ctx.Err() calls so far *)
  s_allocs : nat;                     (* executed allocation sites *)
  s_gw : list (ident * option value); (* writes to package-level sentinels *)
  s_local : option entry              (* the local `err` *)
}.

Definition st0 : st := {| s_errs := []; s_calls := 0; s_allocs := 0; s_gw := []; s_local := None |}.

Record outcome := { o_res : result; o_st : st }.

Inductive ipclass := NotIP | IsV4 | IsV6.

(* an evaluated operand: a field value, or a constant that takes its type from the other side *)
Inductive cv :=
| CVal (v : value) | CNumLit (n : numlit) | CStrLit (s : bytes) | CNilLit | CBoolLit (b : bool) | CZeroCLit.

Definition eval_operand (cur : value) (o : operand) : option cv :=
  match o with
  | OField f => match get_path cur [f] with Some v => Some (CVal v) | None => None end
  | OLen f => match get_path cur [f] with
              | Some (VColl _ n) | Some (VArr n) => Some (CVal (VInt (Z.of_nat n)))
              | _ => None
              end
  | ORuneCount f => match get_path cur [f] with
                    | Some (VStr s) => Some (CVal (VInt (Z.of_nat (rune_count s))))
                    | _ => None
                    end
  | ONum n => Some (CNumLit n)
  | OStr s => Some (CStrLit s)
  | ONil => Some CNilLit
  | OBool b => Some (CBoolLit b)
  | OZeroComplex => Some CZeroCLit
  end.

Definition eqne (op : cmpop) (same : bool) : option bool :=
  match op with OpEq => Some same | OpNe => Some (negb same) | _ => None end.

Definition cmp_cv (op : cmpop) (a b : cv) : option bool :=
  match a, b with
  | CVal (VInt x), CNumLit n => match nl_int n with Some z => Some (zcmp op x z) | None => None end
  | CVal (VF32 x), CNumLit n => Some (fcmp32 op x (nl_f32 n))
  | CVal (VF64 x), CNumLit n => Some (fcmp64 op x (nl_f64 n))
  | CVal (VStr s), CStrLit t => eqne op (bytes_eqb s t)
  | CVal (VBool x), CBoolLit y => eqne op (Bool.eqb x y)
  | CVal (VNilable n), CNilLit => eqne op n
  | CVal (VColl n _), CNilLit => eqne op n
  | CVal (VComplex z), CZeroCLit => eqne op z
  | _, _ => None
  end.

Inductive cres := CB (b : bool) | CStuck | CPanic.

Definition helper_model (h : helper) (s : bytes) : res bool :=
  match h with
  | HEmail => IsValidEmail s
  | HURL => IsValidURL s
  | HUUID => IsValidUUID s
  | HAlpha => Ok (IsValidAlpha s)
  | HNumeric => Ok (IsNumeric s)
  end.

Section Exec.
  Variable ip_class : bytes -> ipclass.       (* net.ParseIP + To4: oracle for the standard library *)
  Variable ctx : nat -> option ctxerr.        (* result of the k-th ctx.Err() call *)

  Fixpoint eval_cond (cur : value) (c : cond) : cres :=
    match c with
    | CCmp op a b =>
        match eval_operand cur a, eval_operand cur b with
        | Some x, Some y => match cmp_cv op x y with Some r => CB r | None => CStuck end
        | _, _ => CStuck
        end
    | CNot x => match eval_cond cur x with CB r => CB (negb r) | o => o end
    (* ill-typedness (CStuck) is static in Go: both operands are checked; panics follow evaluation order *)
    | CAnd x y => match eval_cond cur x, eval_cond cur y with
                  | CStuck, _ | _, CStuck => CStuck
                  | CB true, r => r
                  | o, _ => o
                  end
    | COr x y => match eval_cond cur x, eval_cond cur y with
                 | CStuck, _ | _, CStuck => CStuck
                 | CB false, r => r
                 | o, _ => o
                 end
    | CHelper h f => match get_path cur [f] with
                     | Some (VStr s) => match helper_model h s with Ok r => CB r | Panic => CPanic end
                     | _ => CStuck
                     end
    | CIp want_v4 f => match get_path cur [f] with
                       | Some (VStr s) => CB (match ip_class s with
                                              | NotIP => true
                                              | IsV4 => negb want_v4
                                              | IsV6 => want_v4
                                              end)
                       | _ => CStuck
                       end
    | CRaw _ => CStuck
    end.

  Variable sentinels : list (ident * (bytes * bytes)).   (* name -> (Path, Type) *)

  Fixpoint lookup_sentinel (l : list (ident * (bytes * bytes))) (n : ident) : option (bytes * bytes) :=
    match l with
    | [] => None
    | (m, pt) :: r => if bytes_eqb m n then Some pt else lookup_sentinel r n
    end.

  (* the sites counted in s_allocs: the assignment of the field's value to err.Value, an interface (ASetValue,
     ASetGlobalValue), and the append to the error slice (AAppend); copying the sentinel (ACopy) is not counted *)
  Definition run_action (cur : value) (a : action) (s : st) : option st :=
    match a with
    | ACopy var =>
        match lookup_sentinel sentinels var with
        | Some (p, t) => Some {| s_errs := s_errs s; s_calls := s_calls s; s_allocs := s_allocs s; s_gw := s_gw s;
                                 s_local := Some {| e_sentinel := var; e_path := p; e_type := t; e_value := None |} |}
        | None => None
        end
    | ASetValue f =>
        match s_local s, get_path cur [f] with
        | Some e, Some v => Some {| s_errs := s_errs s; s_calls := s_calls s; s_allocs := S (s_allocs s); s_gw := s_gw s;
                                    s_local := Some {| e_sentinel := e_sentinel e; e_path := e_path e; e_type := e_type e; e_value := Some v |} |}
        | _, _ => None
        end
    | ASetGlobalValue var f =>
        match get_path cur [f] with
        | Some v => Some {| s_errs := s_errs s; s_calls := s_calls s; s_allocs := S (s_allocs s);
                            s_gw := s_gw s ++ [(var, Some v)]; s_local := s_local s |}
        | None => None
        end
    | AAppend =>
        match s_local s with
        | Some e => Some {| s_errs := s_errs s ++ [e]; s_calls := s_calls s; s_allocs := S (s_allocs s); s_gw := s_gw s;
                            s_local := s_local s |}
        | None => None
        end
    end.

  Fixpoint run_actions (cur : value) (acts : list action) (s : st) : option st :=
    match acts with
    | [] => Some s
    | a :: r => match run_action cur a s with Some s' => run_actions cur r s' | None => None end
    end.

  Definition bump (s : st) (k : nat) : st :=
    {| s_errs := s_errs s; s_calls := s_calls s + k; s_allocs := s_allocs s; s_gw := s_gw s; s_local := s_local s |}.

  (* inl (state, shadow) = fell through; inr = returned *)
  Fixpoint run_item (root : value) (it : item) (sh : list ident) (s : st) : (st * list ident) + outcome :=
    match it with
    | IPoll =>
        match ctx (s_calls s) with
        | Some _ => inr {| o_res := RCtx (ctx (S (s_calls s))); o_st := bump s 2 |}
        | None => inl (bump s 1, sh)
        end
    | IShadow p => inl (s, sh ++ p)
    | ICheck c acts =>
        match get_path root sh with
        | None => inr {| o_res := RStuck; o_st := s |}
        | Some cur =>
            match eval_cond cur c with
            | CB true => match run_actions cur acts s with
                         | Some s' => inl ({| s_errs := s_errs s'; s_calls := s_calls s'; s_allocs := s_allocs s';
                                              s_gw := s_gw s'; s_local := None |}, sh)
                         | None => inr {| o_res := RStuck; o_st := s |}
                         end
            | CB false => inl (s, sh)
            | CStuck => inr {| o_res := RStuck; o_st := s |}
            | CPanic => inr {| o_res := RPanic; o_st := s |}
            end
        end
    | IBlock body =>
        match (fix go (l : list item) (sh' : list ident) (s' : st) : st + outcome :=
                 match l with
                 | [] => inl s'
                 | i :: r => match run_item root i sh' s' with
                             | inl (s'', sh'') => go r sh'' s''
                             | inr o => inr o
                             end
                 end) body sh s with
        | inl s' => inl (s', sh)
        | inr o => inr o
        end
    end.

  Fixpoint run_items (root : value) (l : list item) (sh : list ident) (s : st) : st + outcome :=
    match l with
    | [] => inl s
    | i :: r => match run_item root i sh s with
                | inl (s', sh') => run_items root r sh' s'
                | inr o => inr o
                end
    end.

  Lemma run_block root body sh s :
    run_item root (IBlock body) sh s =
    match run_items root body sh s with inl s' => inl (s', sh) | inr o => inr o end.
  Proof.
    (* the shadow handed back is the one the block was entered with, whatever the loop does to its own *)
    cbn [run_item]. generalize sh at 2 4 as sh0. revert sh s.
    induction body as [|i r IH]; intros sh s sh0; [reflexivity|]. cbn [run_items].
    destruct (run_item root i sh s) as [[s1 sh1]|o]; [apply IH|reflexivity].
  Qed.

  Lemma run_action_frame cur a s s' : run_action cur a s = Some s' ->
    s_calls s' = s_calls s /\ (s_gw s' = s_gw s \/ exists var f, a = ASetGlobalValue var f).
  Proof.
    unfold run_action. destruct a.
    - destruct (lookup_sentinel sentinels var) as [[p t]|]; [|discriminate]. intros [= <-]. auto.
    - destruct (s_local s), (get_path cur [f]); try discriminate. intros [= <-]. auto.
    - destruct (get_path cur [f]); [|discriminate]. intros [= <-]. eauto.
    - destruct (s_local s); [|discriminate]. intros [= <-]. auto.
  Qed.

  (* the third alternative is there to be refuted: no condition panics (Safety.eval_cond_no_panic) *)
  Lemma items_early root l : forall sh s o, run_items root l sh s = inr o ->
    (exists k, ctx k <> None /\ o_res o = RCtx (ctx (S k))) \/ o_res o = RStuck \/
    (o_res o = RPanic /\ exists cur c, eval_cond cur c = CPanic).
  Proof.
    induction l as [|r IH|p r IH|c acts r IH|body r IHb IH] using items_ind; intros sh s o; cbn [run_items].
    - discriminate.
    - cbn [run_item]. destruct (ctx (s_calls s)) eqn:E; [|apply IH].
      intros [= <-]. left. exists (s_calls s). split; [congruence|reflexivity].
    - apply IH.
    - cbn [run_item]. destruct (get_path root sh) as [cur|]; [|intros [= <-]; auto].
      destruct (eval_cond cur c) as [[|]| |] eqn:E.
      + destruct (run_actions cur acts s); [apply IH|intros [= <-]; auto].
      + apply IH.
      + intros [= <-]. auto.
      + intros [= <-]. right. right. eauto.
    - rewrite run_block. destruct (run_items root body sh s) eqn:E; [apply IH|]. intros [= <-]. exact (IHb _ _ _ E).
  Qed.
End Exec.

Fixpoint sentinel_table (ds : list vdecl) : list (ident * (bytes * bytes)) :=
  match ds with
  | [] => []
  | DSentinel n p t :: r => (n, (p, t)) :: sentinel_table r
  | _ :: r => sentinel_table r
  end.

(* Validate<T>Context(ctx, t) *)
Definition exec_file (ip_class : bytes -> ipclass) (ctx : nat -> option ctxerr) (f : file) (recv : option value) : outcome :=
  match recv with
  | None => match f_nilguard f with
            | Some n => {| o_res := RErr n; o_st := st0 |}
            | None => {| o_res := RPanic; o_st := st0 |}
            end
  | Some root =>
      match run_items ip_class ctx (sentinel_table (f_decls f)) root (f_items f) [] st0 with
      | inr o => o
      | inl s => {| o_res := if f_tail_ok f then (match s_errs s with [] => RNil | es => RReport es end) else RStuck;
                    o_st := s |}
      end
  end.

Definition background : nat -> option ctxerr := fun _ => None.    (* context.Background(): never done *)
