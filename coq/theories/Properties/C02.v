(* C02 — required rejects exactly the zero value of the field's type. *)
From GV Require Import Base.Bytes GoLite.Sem Gen.Decl Gen.Rules Gen.Spec Gen.GenProofs1.

(* the emitted condition, on a value of the field's type, is true exactly when the value is the type's zero value *)
Theorem C02_exact : forall ipc f t c cur v b,
  required_cond f t = Some c -> get_field cur f = Some v -> has_type v t = true ->
  eval_cond ipc (VStruct cur) c = CB b -> is_zero_value v = Some b.
Proof.
  intros ipc f t c cur v b Hc. apply (cond_sound ipc [] RRequired f t None). cbn [make_cond]. rewrite Hc. reflexivity.
Qed.
Print Assumptions C02_exact.

(* required emits a condition for every type that has a zero literal or is a collection; the types without one
   (struct types) are exactly those for which the specification has no verdict *)
Theorem C02_no_condition_no_verdict : forall f t v, required_cond f t = None -> has_type v t = true -> is_zero_value v = None.
Proof. exact required_none. Qed.
Print Assumptions C02_no_condition_no_verdict.

(* nil versus empty: a non-nil collection is accepted whatever its length; a named type behaves like its underlying type *)
Theorem C02_nil_vs_empty : forall n, is_zero_value (VColl true 0) = Some true /\ is_zero_value (VColl false n) = Some false.
Proof. intro n. split; reflexivity. Qed.

Theorem C02_named : forall f u, required_cond f (TNamed u) = required_cond f u \/ (exists u', u = TNamed u').
Proof.
  intros f u. destruct u; try (left; reflexivity). right. eauto.
Qed.

Example C02_negative_zero : is_zero_value (VF64 9223372036854775808) = Some true.    (* -0.0 *)
Proof. vm_compute. reflexivity. Qed.
Example C02_nan_not_zero : is_zero_value (VF64 9221120237041090560) = Some false.
Proof. vm_compute. reflexivity. Qed.
Example C02_array : is_zero_value (VArr 3) = Some false /\ is_zero_value (VArr 0) = Some true.
Proof. split; reflexivity. Qed.
