(* C07 — the validation report is exact. The proofs not given here are in Gen/GenProofs*.v, Gen/GenExact.v. *)
From GV Require Import Base.Bytes GoLite.Syntax GoLite.Sem.
From GV Require Import Gen.Decl Gen.Rules Gen.Template Gen.Spec Gen.Guard Gen.Typed Gen.GenProofs2 Gen.GenProofs3 Gen.GenExact Gen.Harness.

(* For every declaration outside the known-finding classes (in_guard, a decidable predicate that is evaluated
   on every corpus declaration at run time) and every well-typed receiver value: the generated
   Validate<T>Context, run with a context that is never done, either is ill-typed (RStuck: a marker parameter
   outside the documented language, e.g. gt=abc; such a file does not compile) or returns nil exactly when no
   rule is violated and otherwise a report with exactly one entry per violated rule - none missing, none
   duplicated, in declaration order - carrying the dotted Path, the marker name as Type and the field's
   current value. *)
Theorem C07_report_exact : forall ipc tab d f root,
  in_guard tab d = true -> gen_file tab d = Some f -> wt_struct d root ->
  let o := exec_file ipc background f (Some root) in
  o_res o = RStuck \/
  (report_of (o_res o) = Some (map projw (expected ipc tab d root)) /\
   (o_res o = RNil <-> expected ipc tab d root = []) /\
   s_gw (o_st o) = [] /\ s_allocs (o_st o) = 2 * length (expected ipc tab d root)).
Proof. exact gen_exact. Qed.
Print Assumptions C07_report_exact.

(* The same without the "ill-typed" alternative: when, in addition, every marker parameter of the declaration is in the
   documented language (params_ok: a decidable predicate - numeric rules carry a numeric literal that is an integer for
   integer fields, not on complex fields; length and item rules carry an integer literal; enum items of numeric fields are
   numeric literals; no enum on non-basic types; CEL rules are the subject of C10), the generated code is well-typed and
   returns exactly the expected report. *)
Theorem C07_report_exact_typed : forall ipc tab d f root,
  in_guard tab d = true -> params_ok tab d = true -> gen_file tab d = Some f -> wt_struct d root ->
  let o := exec_file ipc background f (Some root) in
  o_res o <> RStuck /\
  report_of (o_res o) = Some (map projw (expected ipc tab d root)) /\
  (o_res o = RNil <-> expected ipc tab d root = []) /\
  s_gw (o_st o) = [] /\ s_allocs (o_st o) = 2 * length (expected ipc tab d root).
Proof. exact gen_exact_typed. Qed.
Print Assumptions C07_report_exact_typed.

Theorem C07_nil_receiver : forall ipc tab d f ctx, gen_file tab d = Some f ->
  o_res (exec_file ipc ctx f None) = RErr (bs "ErrNil" ++ sd_name d) /\ s_calls (o_st (exec_file ipc ctx f None)) = 0.
Proof. exact gen_nil_receiver. Qed.
Print Assumptions C07_nil_receiver.

(* every check of a generated file finds its own sentinel (right Path and Type) under its error variable *)
Theorem C07_sentinels : forall vs, names_ok vs -> forall vd, In vd vs -> v_cond vd <> None ->
  lookup_sentinel (sentinel_table (err_decls vs [])) (v_errvar vd) = Some (v_path vd, v_rulename vd).
Proof. exact lookup_exact. Qed.
Print Assumptions C07_sentinels.

(* errors.Is(err, S): ValidationErrors.Is -> ValidationError.Is compares Path, Type and Reason and ignores Value;
   wrapping with %w only adds links to the Unwrap chain that errors.Is walks *)
Theorem C07_errors_is : forall (es : list (bytes * bytes * bool)) path ty,
  errors_is es path ty = true <-> exists v, In (path, ty, v) es.
Proof.
  intros es path ty. unfold errors_is. rewrite existsb_exists. split.
  - intros [[[p t] v] [Hin H]]. apply andb_true_iff in H as [A B]. apply bytes_eqb_eq in A, B. subst. eauto.
  - intros [v Hin]. exists (path, ty, v). split; [exact Hin|]. rewrite !bytes_eqb_refl. reflexivity.
Qed.
Print Assumptions C07_errors_is.

(* what the guard excludes is refuted by computation on the faithful model: witnesses of D7 and D10 *)
Definition d7_decl : sdecl :=
  {| sd_name := bs "T"; sd_doc := [];
     sd_fields := [FNested [bs "Outer"] [bs "//govalid:required"] [FPlain [bs "Inner"] [] (TBasic BString)]] |}.
Definition d7_value : value := VStruct [(bs "Outer", VStruct [(bs "Inner", VStr [])])].

Theorem C07_nested_marker_refuted :
  in_guard [] d7_decl = false /\
  exists f, gen_file [] d7_decl = Some f /\
            report_of (o_res (exec_file (fun _ => NotIP) background f (Some d7_value))) = Some [(bs "T.Inner", bs "required", Some (VStr []))].
Proof. split; [reflexivity|]. eexists. split; [reflexivity|]. vm_compute. reflexivity. Qed.

Definition d10_decl : sdecl :=
  {| sd_name := bs "J"; sd_doc := [];
     sd_fields := [FNested [bs "A"] [] [FPlain [bs "BC"] [bs "//govalid:required"] (TBasic BString)];
                   FNested [bs "AB"] [] [FPlain [bs "C"] [bs "//govalid:required"] (TBasic BString)]] |}.
Definition d10_value : value := VStruct [(bs "A", VStruct [(bs "BC", VStr (bs "x"))]); (bs "AB", VStruct [(bs "C", VStr [])])].

Theorem C07_shared_variable_refuted :
  in_guard [] d10_decl = false /\
  map projw (expected (fun _ => NotIP) [] d10_decl d10_value) = [(bs "J.AB.C", bs "required", Some (VStr []))] /\
  exists f, gen_file [] d10_decl = Some f /\
            report_of (o_res (exec_file (fun _ => NotIP) background f (Some d10_value))) = Some [(bs "J.A.BC", bs "required", Some (VStr []))].
Proof. split; [reflexivity|]. split; [reflexivity|]. eexists. split; [reflexivity|]. vm_compute. reflexivity. Qed.

(* non-vacuity: a declaration inside the guard, with a well-typed value that violates two of three rules *)
Definition ex_decl : sdecl :=
  {| sd_name := bs "User"; sd_doc := [];
     sd_fields := [FPlain [bs "Name"; bs "Nick"] [bs "//govalid:required"; bs "//govalid:maxlength=3"] (TBasic BString);
                   FNested [bs "Addr"] [] [FPlain [bs "Zip"] [bs "//govalid:numeric"] (TBasic BString)]] |}.
Definition ex_tab : numtab := [(bs "3", {| nl_int := Some 3%Z; nl_f32 := 1077936128%Z; nl_f64 := 4613937818241073152%Z |})].
Definition ex_value : value :=
  VStruct [(bs "Name", VStr []); (bs "Nick", VStr (bs "toolong")); (bs "Addr", VStruct [(bs "Zip", VStr (bs "123"))])].

Example C07_guard_inhabited : in_guard ex_tab ex_decl = true /\ params_ok ex_tab ex_decl = true.
Proof. vm_compute. auto. Qed.
Example C07_example :
  map projw (expected (fun _ => NotIP) ex_tab ex_decl ex_value) =
  [(bs "User.Name", bs "required", Some (VStr [])); (bs "User.Nick", bs "maxlength", Some (VStr (bs "toolong")))].
Proof. vm_compute. reflexivity. Qed.
