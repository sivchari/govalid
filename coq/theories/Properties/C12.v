(* C12 — URL recognizer accepts exactly the documented scheme/host shape.
   The proofs not given here are in Helpers/UrlProofs.v. *)
From GV Require Import Base.Bytes Helpers.Url Helpers.UrlSpec Helpers.UrlProofs.

Theorem C12_exact : forall s : bytes, IsValidURL s = Ok true <-> url_spec s.
Proof. exact IsValidURL_exact. Qed.
Print Assumptions C12_exact.

(* never panics; being a Gallina function of its argument, it is deterministic *)
Theorem C12_total : forall s : bytes, exists b, IsValidURL s = Ok b.
Proof. exact IsValidURL_total. Qed.
Print Assumptions C12_total.

(* the code's scheme tables are exactly the specification's lists *)
Theorem C12_tables : forall x : bytes,
  (In x validSchemes <-> In x (host_schemes ++ opaque_schemes)) /\
  (In x schemesNotRequiringHost <-> In x opaque_schemes).
Proof. intro x. split; [apply tables_valid | apply tables_nohost]. Qed.
Print Assumptions C12_tables.

Example C12_member_host : IsValidURL (bs "https://example.com/a?b=c") = Ok true.
Proof. vm_compute. reflexivity. Qed.
Example C12_member_ipv6 : IsValidURL (bs "http://[::1]:80/") = Ok true.
Proof. vm_compute. reflexivity. Qed.
Example C12_member_opaque : IsValidURL (bs "mailto:a@b.c") = Ok true.
Proof. vm_compute. reflexivity. Qed.
Example C12_nonmember_case : IsValidURL (bs "HTTP://example.com") = Ok false.
Proof. vm_compute. reflexivity. Qed.
Example C12_nonmember_space : IsValidURL (bs "http://exa mple.com") = Ok false.
Proof. vm_compute. reflexivity. Qed.
Example C12_nonmember_empty_opaque : IsValidURL (bs "mailto:") = Ok false.
Proof. vm_compute. reflexivity. Qed.
