(* C01 — numeric bound markers decide exactly the stated order relation; DESIGN.md §5 C01 says what is proved where. *)
From GV Require Import Base.Bytes Base.GoFloat Gen.Decl Gen.Rules Gen.Spec.

(* integers: Go's typed comparison of two in-range values is the comparison of the integers *)
Theorem C01_int : forall (op : cmpop) (v n : Z),
  zcmp op v n = true <->
  match op with
  | OpEq => v = n | OpNe => v <> n
  | OpLt => (v < n)%Z | OpLe => (v <= n)%Z | OpGt => (v > n)%Z | OpGe => (v >= n)%Z
  end.
Proof.
  intros op v n. destruct op; cbn [zcmp].
  - apply Z.eqb_eq.
  - rewrite Bool.negb_true_iff. apply Z.eqb_neq.
  - apply Z.ltb_lt.
  - apply Z.leb_le.
  - lia.
  - lia.
Qed.
Print Assumptions C01_int.

(* floats: the operator holds iff neither operand is NaN and the relation holds between the
   extended reals they denote; NaN fails everything except != ; infinities compare as +-infinity *)
Theorem C01_float64 : forall (op : cmpop) (x n : Z),
  fcmp64 op x n = true <-> go_float_rel 53 1024 op (f64 x) (f64 n).
Proof. intros. apply (of_cmp_meaning 53 1024). Qed.
Print Assumptions C01_float64.

Theorem C01_float32 : forall (op : cmpop) (x n : Z),
  fcmp32 op x n = true <-> go_float_rel 24 128 op (f32 x) (f32 n).
Proof. intros. apply (of_cmp_meaning 24 128). Qed.
Print Assumptions C01_float32.

(* NaN therefore fails gt, gte, lt and lte alike *)
Theorem C01_nan_fails_all : forall (op : cmpop) (x n : Z),
  is_nan64 x = true -> op <> OpNe -> fcmp64 op x n = false.
Proof.
  intros op x n H Hop. unfold fcmp64, is_nan64 in *.
  destruct (f64 x); try discriminate. destruct op; try reflexivity. congruence.
Qed.
Print Assumptions C01_nan_fails_all.

(* the rule's verdict in the specification is the negated relation on the field value *)
Theorem C01_rule_meaning : forall ipc tab r a t v n,
  (r = RGt \/ r = RGte \/ r = RLt \/ r = RLte) -> is_numeric_type t = true -> num_of tab a = Some n ->
  violated ipc tab r (Some a) t v =
  option_map negb (num_rel (match r with RGt => OpGt | RGte => OpGe | RLt => OpLt | _ => OpLe end) v n).
Proof.
  intros ipc tab r a t v n Hr Ht Hn. unfold violated.
  destruct Hr as [->|[->|[->| ->]]]; rewrite Ht, Hn; reflexivity.
Qed.
Print Assumptions C01_rule_meaning.

Example C01_ex_nan : fcmp64 OpGt 9221120237041090560 0 = false /\ fcmp64 OpLe 9221120237041090560 0 = false.
Proof. vm_compute. split; reflexivity. Qed.
Example C01_ex_inf : fcmp64 OpGt 9218868437227405312 4607182418800017408 = true.   (* +Inf > 1.0 *)
Proof. vm_compute. reflexivity. Qed.
Example C01_ex_negzero : fcmp64 OpGe 9223372036854775808 0 = true /\ fcmp64 OpGt 9223372036854775808 0 = false.  (* -0.0 vs 0 *)
Proof. vm_compute. split; reflexivity. Qed.
