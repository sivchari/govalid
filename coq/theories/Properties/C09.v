(* C09 — every field governed by a marker is checked. *)
From GV Require Import Base.Bytes GoLite.Sem.
From GV Require Import Gen.Decl Gen.Rules Gen.Template Gen.Spec Gen.Guard Gen.GenProofs1 Gen.Typed Gen.GenProofs2 Gen.GenExact.

(* no silent gap: if any written rule (every name of every field, nested structs included, struct-level
   markers pushed down to the fields they apply to) is violated, the generated validator does not return nil *)
Theorem C09_no_gap : forall ipc tab d f root w,
  in_guard tab d = true -> gen_file tab d = Some f -> wt_struct d root ->
  In w (expected ipc tab d root) ->
  o_res (exec_file ipc background f (Some root)) <> RNil.
Proof.
  intros ipc tab d f root w G Hf W Hin N.
  destruct (gen_exact ipc tab d f root G Hf W) as [H|(_ & Hn & _)]; [congruence|].
  rewrite (proj1 Hn N) in Hin. exact Hin.
Qed.
Print Assumptions C09_no_gap.

(* a marker on the struct declaration has the effect of the same marker on each field: in the specification the
   rules of a field are the struct's markers followed by the field's own *)
Theorem C09_struct_level_is_per_field : forall tms doc, rules_of tms doc = tms ++ sorted_markers doc.
Proof. reflexivity. Qed.

(* a rule that does not apply to a field's type constrains nothing and emits nothing *)
Theorem C09_inapplicable_harmless : forall ipc tab r f t arg v,
  make_cond tab r f t arg = NoValidator -> has_type v t = true -> violated ipc tab r arg t v = None.
Proof. intros ipc tab r f t arg v Hm Ht. apply (cond_absent ipc tab r f t arg v); [rewrite Hm; discriminate|exact Ht]. Qed.
Print Assumptions C09_inapplicable_harmless.

(* and for documented parameters the violated rule itself is in the report, with its Path, Type and Value *)
Theorem C09_violated_rule_is_reported : forall ipc tab d f root w,
  in_guard tab d = true -> params_ok tab d = true -> gen_file tab d = Some f -> wt_struct d root ->
  In w (expected ipc tab d root) ->
  exists es, report_of (o_res (exec_file ipc background f (Some root))) = Some es /\ In (projw w) es.
Proof.
  intros ipc tab d f root w G P Hf W Hin.
  destruct (gen_exact_typed ipc tab d f root G P Hf W) as (_ & Hr & _).
  eexists. split; [exact Hr|exact (in_map _ _ _ Hin)].
Qed.
Print Assumptions C09_violated_rule_is_reported.
