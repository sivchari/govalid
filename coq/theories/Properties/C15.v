(* C15 — the context contract. The main theorem holds for EVERY GoLite program, hence for every translated
   generated file of a run without going through the generator model. *)
From GV Require Import Base.Bytes GoLite.Syntax GoLite.Sem GoLite.CtxProofs Gen.Template Gen.Memory.

Theorem C15_contract : forall ipc ctx f recv,
  let o := exec_file ipc ctx f recv in
  let b := exec_file ipc background f recv in
  (exists k, o_res o = RCtx (ctx (S k)) /\ ctx k <> None /\ s_calls (o_st o) = S (S k)) \/
  (o = b /\ forall j, j < s_calls (o_st b) -> ctx j = None) \/
  (o = b /\ (o_res b = RStuck \/ o_res b = RPanic)).
Proof. exact ctx_contract. Qed.
Print Assumptions C15_contract.

(* with a context.Context honouring its contract (once done, Err() keeps returning the same error) the first
   disjunct is "returns exactly ctx.Err()" *)
Definition monotone (ctx : nat -> option ctxerr) : Prop := forall k e, ctx k = Some e -> forall j, k <= j -> ctx j = Some e.

Theorem C15_done_exact : forall ipc ctx f recv k,
  monotone ctx -> o_res (exec_file ipc ctx f recv) = RCtx (ctx (S k)) -> ctx k <> None -> ctx (S k) = ctx k.
Proof.
  intros ipc ctx f recv k M _ N. destruct (ctx k) as [e|] eqn:E; [|congruence]. apply (M k e E). lia.
Qed.

(* a cancellation point precedes every validated field: each group of the generated body starts with a poll *)
Definition starts_with_poll (l : list item) : Prop :=
  match l with
  | IPoll :: _ => True
  | [IBlock (IPoll :: _)] => True
  | _ => False
  end.

Theorem C15_poll_precedes_every_group : forall m, starts_with_poll (group_items m).
Proof. intro m. unfold group_items. destruct (md_parent m); exact I. Qed.

Theorem C15_wrappers_and_shape : forall tab d f, gen_file tab d = Some f ->
  f_wrappers_ok f = true /\ f_tail_ok f = true /\ f_items f = flat_map group_items (analyze tab d).
Proof.
  intros tab d f H. apply gen_file_inv in H as [_ ->]. auto.
Qed.
