(* C17 — validation never panics. *)
From GV Require Import Base.Bytes GoLite.Syntax GoLite.Sem GoLite.Safety Gen.Template Gen.Memory.
From GV Require Import Helpers.Email Helpers.Url Helpers.Uuid Helpers.EmailProofs Helpers.UrlProofs Helpers.UuidProofs.

(* any program that has the nil guard - every translated file of a run is checked for it - returns normally
   for every receiver (nil included), every field value and every context. CEL conditions are opaque here
   (known finding D16: integer division by a zero field panics). *)
Theorem C17_no_panic : forall ipc ctx f recv, f_nilguard f <> None -> o_res (exec_file ipc ctx f recv) <> RPanic.
Proof. exact exec_no_panic. Qed.
Print Assumptions C17_no_panic.

Theorem C17_generated_has_nil_guard : forall tab d f, gen_file tab d = Some f -> f_nilguard f <> None.
Proof. intros tab d f H. apply gen_file_inv in H as [_ ->]. discriminate. Qed.

Theorem C17_helpers_total : forall s : bytes,
  (exists b, IsValidEmail s = Ok b) /\ (exists b, IsValidURL s = Ok b) /\ (exists b, IsValidUUID s = Ok b).
Proof. intro s. split; [apply IsValidEmail_total|split; [apply IsValidURL_total|apply IsValidUUID_total]]. Qed.
Print Assumptions C17_helpers_total.
