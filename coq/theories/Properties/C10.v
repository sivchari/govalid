(* C10 — CEL markers: the generated Go agrees with reference CEL semantics.
   The proofs not given here are in Cel/Sound.v and Cel/Harness.v. *)
From GV Require Import Base.Bytes Cel.Syntax Cel.CelSem Cel.GoSem Cel.Translate Cel.Env Cel.Sound Cel.Harness.
Local Open Scope Z_scope.

(* The generator model (cel_condition: pre-filter, cel-go's AST, convertASTToGo) against the reference semantics
   (ceval: cel-go's interpreter), for every expression of the proved fragment, every struct value of the declared
   field types, and any behaviour of the shared standard-library oracles: the emitted condition evaluates to a
   boolean (it neither panics nor is ill-typed) and, whenever cel-go yields a boolean b, the condition is (negb b):
   the CEL error is reported iff the expression is false. *)
Theorem C10_translation_sound :
  forall re_match parse_float fmt_g parse_dur re_ok fts fname rho src e cond,
  (forall p, re_ok p = true -> forall s, re_match p s <> None) ->
  (forall s z, parse_dur s = Some z -> in_i64 z = true) ->
  struct_ok fts rho = true ->
  proved_fragment re_ok fts fname e = true ->
  cel_condition fname re_ok src (Some e) = Some cond ->
  exists r, geval re_match parse_float fmt_g parse_dur (go_fields rho) [] cond = GV (GBool r) /\
            (forall b, ceval re_match parse_float fmt_g parse_dur (cel_env fname rho) e = Some (CV (VBool b)) -> r = negb b).
Proof. exact cel_condition_sound. Qed.
Print Assumptions C10_translation_sound.

(* The same about the code govalid actually emitted, for a corpus expression whose certificate the kernel accepted *)
Theorem C10_emitted_condition_sound :
  forall (c : celcase) re_match parse_float fmt_g parse_dur,
  (forall p, case_re_ok c p = true -> forall s, re_match p s <> None) ->
  (forall s z, parse_dur s = Some z -> in_i64 z = true) ->
  cr_cert (check_case c) = true -> cr_fragment (check_case c) = true ->
  exists e cond, cc_ast c = Some e /\ cc_real c = Some cond /\
    forall rho, struct_ok (cc_fields c) rho = true ->
    exists r, geval re_match parse_float fmt_g parse_dur (go_fields rho) [] cond = GV (GBool r) /\
              (forall b, ceval re_match parse_float fmt_g parse_dur (cel_env (cc_fname c) rho) e = Some (CV (VBool b)) -> r = negb b).
Proof. exact case_sound. Qed.
Print Assumptions C10_emitted_condition_sound.

(* "An expression the translator cannot render faithfully must fail loudly": the model stops generation
   (no condition at all) for has(), unknown functions and methods, other call shapes, expressions the
   pre-filter or cel-go rejects, and invalid constant patterns; it never substitutes a constant. *)
Theorem C10_unrenderable_stops_generation :
  forall fname re_ok,
  (forall o f, tr fname re_ok (ESelect o f true) = None) /\
  (forall name a, tr fname re_ok (ECall1 (FOther name) a) = None) /\
  (forall name a b, tr fname re_ok (ECall2 (FOther name) a b) = None) /\
  (forall fn t, tr fname re_ok (EMeth0 fn t) = None) /\
  (forall name t a, tr fname re_ok (EMeth1 (FOther name) t a) = None) /\
  tr fname re_ok EOther = None /\
  (forall src, cel_condition fname re_ok src None = None) /\
  (forall src e, prefilter_rejects src = true -> cel_condition fname re_ok src (Some e) = None) /\
  (forall s p, re_ok p = false -> tr fname re_ok (EMeth1 FMatches s (EConst (KString p))) = None).
Proof.
  intros fname re_ok.
  (* has(), unknown binary functions and methods convert their operands first and fail afterwards *)
  assert (stop : forall A B (o : option A), obind o (fun _ => @None B) = None) by (intros A B []; reflexivity).
  repeat apply conj.
  - intros o f. apply stop.
  - reflexivity.
  - intros name a b. cbn [tr bin_of]. destruct (tr fname re_ok a); [apply stop | reflexivity].
  - intros fn t. apply stop.
  - intros name t a. apply stop.
  - reflexivity.
  - intro src. unfold cel_condition. destruct (prefilter_rejects src); reflexivity.
  - intros src e H. unfold cel_condition. rewrite H. reflexivity.
  - intros s p H. cbn [tr obind pattern_ok]. rewrite H. apply stop.
Qed.
Print Assumptions C10_unrenderable_stops_generation.

(* non-vacuity: the fragment is inhabited and the hypotheses are satisfiable *)
Definition V := bs "V".
Definition ex_fields : list (ident * fty) := [(V, TInt IInt); (bs "A", TInt IInt); (bs "Tags", TStrs)].
Definition ex_rho (v a : Z) : struct_val := [(V, XInt IInt v); (bs "A", XInt IInt a); (bs "Tags", XStrs [bs "a"; bs "b"])].
(* value * (this.A + 1) > 10 && !(value in [1, 2, 3]) *)
Definition ex_expr : cexpr :=
  ECall2 FAnd
    (ECall2 FGt (ECall2 FMul (EIdent s_value) (ECall2 FAdd (ESelect (EIdent s_this) (bs "A") false) (EConst (KInt 1)))) (EConst (KInt 10)))
    (ECall1 FNot (ECall2 FIn (EIdent s_value) (EList [EConst (KInt 1); EConst (KInt 2); EConst (KInt 3)]))).
Definition the (o : option gexpr) : gexpr := match o with Some g => g | None => GUnknown end.
Definition ex_cond : gexpr := Eval vm_compute in the (cel_condition V (fun _ => true) [] (Some ex_expr)).
Example C10_fragment_inhabited :
  proved_fragment (fun _ => true) ex_fields V ex_expr = true /\ struct_ok ex_fields (ex_rho 4 2) = true /\
  ceval no_re no_pf no_fg (dur_of []) (cel_env V (ex_rho 4 2)) ex_expr = Some (CV (VBool true)) /\
  cel_condition V (fun _ => true) [] (Some ex_expr) = Some ex_cond /\
  geval no_re no_pf no_fg (dur_of []) (go_fields (ex_rho 4 2)) [] ex_cond = GV (GBool false).
Proof. repeat split; vm_compute; reflexivity. Qed.

(* the open findings, exhibited on the models (each replayed on the implementation by bin/check C10) *)
Definition refutes (fts : list (ident * fty)) (rho : struct_val) (e : cexpr) : Prop :=
  let cond := the (cel_condition V (fun _ => true) [] (Some e)) in
  struct_ok fts rho = true /\ cel_condition V (fun _ => true) [] (Some e) = Some cond /\
  ceval no_re no_pf no_fg (dur_of []) (cel_env V rho) e = Some (CV (VBool true)) /\
  geval no_re no_pf no_fg (dur_of []) (go_fields rho) [] cond = GV (GBool true).

(* D14: size(value) == 1 on "é": cel-go says true (one code point), the emitted len(t.V) == 1 is false: the error is reported *)
Theorem C10_size_counts_bytes_refuted :
  refutes [(V, TStr)] [(V, XStr [xc3; xa9])] (ECall2 FEq (ECall1 FSize (EIdent s_value)) (EConst (KInt 1))).
Proof. repeat split; vm_compute; reflexivity. Qed.
Print Assumptions C10_size_counts_bytes_refuted.

(* D15: value * 2 > 100 on an int8 field holding 100: cel-go computes 200 > 100, Go wraps to -56 *)
Theorem C10_narrow_int_wrap_refuted :
  refutes [(V, TInt I8)] [(V, XInt I8 100)] (ECall2 FGt (ECall2 FMul (EIdent s_value) (EConst (KInt 2))) (EConst (KInt 100))).
Proof. repeat split; vm_compute; reflexivity. Qed.
Print Assumptions C10_narrow_int_wrap_refuted.

(* D23: value.all(k, k != 0) on map[string]int {"a": 0}: CEL iterates the keys, the emitted range binds the values *)
Definition all_macro (x : ident) (range body : cexpr) : cexpr :=
  ECompr x range (bs "@result") (EConst (KBool true)) (ECall1 FNotStrictlyFalse (EIdent (bs "@result")))
         (ECall2 FAnd (EIdent (bs "@result")) body) (EIdent (bs "@result")).
Theorem C10_map_iterates_values_refuted :
  refutes [(V, TMapSI IInt)] [(V, XMapSI IInt [(bs "a", 0)])]
          (all_macro (bs "k") (EIdent s_value) (ECall2 FNe (EIdent (bs "k")) (EConst (KInt 0)))).
Proof. repeat split; vm_compute; reflexivity. Qed.
Print Assumptions C10_map_iterates_values_refuted.

(* D16 (C17): value / this.A > 1 with A = 0: the emitted condition panics *)
Theorem C10_division_by_field_panics :
  let e := ECall2 FGt (ECall2 FDiv (EIdent s_value) (ESelect (EIdent s_this) (bs "A") false)) (EConst (KInt 1)) in
  let rho := [(V, XInt IInt 5); (bs "A", XInt IInt 0)] in
  struct_ok [(V, TInt IInt); (bs "A", TInt IInt)] rho = true /\
  geval no_re no_pf no_fg (dur_of []) (go_fields rho) [] (the (cel_condition V (fun _ => true) [] (Some e))) = GPanic.
Proof. repeat split; vm_compute; reflexivity. Qed.
Print Assumptions C10_division_by_field_panics.
