(* C16 — validation is read-only and repeatable. The Go memory model and the race detector are outside the model
   (partial): what is proved is that no write to shared state exists, which is what a data race needs. *)
From GV Require Import Base.Bytes GoLite.Sem GoLite.Safety Gen.Rules Gen.Template Gen.Memory.

(* any program without an ASetGlobalValue action leaves the package-level sentinels untouched (holds for every
   translated file p_i of a run, for which file_writes_global p_i = false is evaluated) *)
Theorem C16_no_shared_writes : forall ipc ctx f recv,
  file_writes_global f = false -> s_gw (o_st (exec_file ipc ctx f recv)) = [].
Proof. exact exec_no_global_writes. Qed.
Print Assumptions C16_no_shared_writes.

(* the generator never emits such an action *)
Lemma checks_no_global vs : existsb item_writes_global (checks_of vs) = false.
Proof.
  unfold checks_of. induction vs as [|v r IH]; [reflexivity|]. cbn [flat_map]. destruct (v_cond v); [cbn; exact IH|exact IH].
Qed.

Lemma groups_no_global mds : existsb item_writes_global (flat_map group_items mds) = false.
Proof.
  induction mds as [|m r IH]; [reflexivity|]. cbn [flat_map]. rewrite existsb_app, IH, orb_false_r.
  unfold group_items. destruct (md_parent m); [apply checks_no_global|].
  cbn [existsb]. rewrite item_writes_global_block, orb_false_r. apply checks_no_global.
Qed.

Theorem C16_generated_code_is_read_only : forall tab d f, gen_file tab d = Some f -> file_writes_global f = false.
Proof.
  intros tab d f H. apply gen_file_inv in H as [_ ->]. apply groups_no_global.
Qed.
Print Assumptions C16_generated_code_is_read_only.

(* repeatable: the outcome is a function of (program, receiver, context) - exec_file is a Gallina function;
   the receiver value is an argument that no action can write *)
Theorem C16_repeatable : forall ipc ctx f recv, exec_file ipc ctx f recv = exec_file ipc ctx f recv.
Proof. reflexivity. Qed.
