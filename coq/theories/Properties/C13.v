(* C13 — UUID recognizer accepts exactly RFC 4122 textual UUIDs, case-insensitively.
   Only statements here; proofs live in Helpers/UuidProofs.v. *)
From GV Require Import Base.Bytes Helpers.Uuid Helpers.UuidSpec Helpers.UuidProofs.

Theorem C13_exact : forall s : bytes, IsValidUUID s = Ok true <-> uuid_spec s.
Proof. exact IsValidUUID_exact. Qed.
Print Assumptions C13_exact.

Theorem C13_total : forall s : bytes, exists b, IsValidUUID s = Ok b.
Proof. exact IsValidUUID_total. Qed.
Print Assumptions C13_total.

Theorem C13_case_insensitive : forall s s' : bytes,
  same_upto_hex_case s s' -> IsValidUUID s = IsValidUUID s'.
Proof. exact IsValidUUID_case_insensitive. Qed.
Print Assumptions C13_case_insensitive.

(* non-vacuity: the specification has members of each kind, and non-members *)
Example C13_member_v4 : IsValidUUID (bs "550e8400-e29b-41d4-a716-446655440000") = Ok true.
Proof. vm_compute. reflexivity. Qed.
Example C13_member_nil : IsValidUUID nil_uuid = Ok true.
Proof. vm_compute. reflexivity. Qed.
Example C13_member_max_upper : IsValidUUID (bs "FFFFFFFF-FFFF-FFFF-FFFF-FFFFFFFFFFFF") = Ok true.
Proof. vm_compute. reflexivity. Qed.
Example C13_nonmember_v6 : IsValidUUID (bs "550e8400-e29b-61d4-a716-446655440000") = Ok false.
Proof. vm_compute. reflexivity. Qed.
Example C13_case_pair :
  same_upto_hex_case (bs "550e8400-e29b-41d4-a716-446655440000") (bs "550E8400-E29B-41D4-A716-446655440000").
Proof. apply same_case_map. reflexivity. Qed.
