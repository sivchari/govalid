(* C03, C04, C05, C06 — the emitted condition of every rule decides the rule's verdict in the specification
   (one theorem, instantiated per marker family below). Proof: Gen/GenProofs1.v. *)
From GV Require Import Base.Bytes Base.Utf8 Base.StrOps GoLite.Syntax GoLite.Sem Gen.Decl Gen.Rules Gen.Spec Gen.GenProofs1.
From GV Require Import Helpers.Alnum Helpers.AlnumProofs Base.TrimSpec.

Theorem rule_condition_exact : forall ipc tab r f t arg c cur v b,
  make_cond tab r f t arg = WithCond c -> get_field cur f = Some v -> has_type v t = true ->
  eval_cond ipc (VStruct cur) c = CB b -> violated ipc tab r arg t v = Some b.
Proof. exact cond_sound. Qed.
Print Assumptions rule_condition_exact.

Theorem rule_absent_no_verdict : forall ipc tab r f t arg v,
  (forall c, make_cond tab r f t arg <> WithCond c) -> has_type v t = true -> violated ipc tab r arg t v = None.
Proof. exact cond_absent. Qed.
Print Assumptions rule_absent_no_verdict.

(* C03: the verdict of the length markers is a comparison of the code-point count (Base/Utf8.v rune_count) *)
Theorem C03_meaning : forall ipc tab a t s z n,
  is_string_type t = true -> num_of tab a = Some n -> nl_int n = Some z ->
  violated ipc tab RMinlength (Some a) t (VStr s) = Some (Z.ltb (Z.of_nat (rune_count s)) z) /\
  violated ipc tab RMaxlength (Some a) t (VStr s) = Some (Z.ltb z (Z.of_nat (rune_count s))) /\
  violated ipc tab RLength (Some a) t (VStr s) = Some (negb (Z.eqb (Z.of_nat (rune_count s)) z)).
Proof. intros ipc tab a t s z n Ht Hn Hz. unfold violated. rewrite Ht, Hn, Hz. auto. Qed.

(* C04: the verdict of the item markers is a comparison of len(): nil has length 0, an array its declared size *)
Theorem C04_meaning : forall ipc tab a t v c z n,
  is_collection_type t = true -> coll_len v = Some c -> num_of tab a = Some n -> nl_int n = Some z ->
  violated ipc tab RMinitems (Some a) t v = Some (Z.ltb c z) /\
  violated ipc tab RMaxitems (Some a) t v = Some (Z.ltb z c).
Proof. intros ipc tab a t v c z n Ht Hc Hn Hz. unfold violated. rewrite Ht, Hc, Hn, Hz. auto. Qed.

Example C04_nil_has_length_zero : coll_len (VColl true 0) = Some 0%Z. Proof. reflexivity. Qed.
Example C04_array_declared_size : coll_len (VArr 3) = Some 3%Z. Proof. reflexivity. Qed.

(* C05: a string enum accepts exactly the trimmed items, compared byte for byte *)
Theorem C05_string : forall ipc tab a t s, enum_kind_of t = Some EString ->
  violated ipc tab REnum (Some a) t (VStr s) = Some (negb (existsb (bytes_eqb s) (map trim_space (split_on ","%byte a)))).
Proof. intros ipc tab a t s Hk. unfold violated. rewrite Hk. reflexivity. Qed.

Example C05_trim : enum_items (bs " admin , user,guest ") = [bs "admin"; bs "user"; bs "guest"].
Proof. vm_compute. reflexivity. Qed.

(* "items are trimmed of surrounding blanks": every item is a comma-separated piece of the list minus a run of blank runes
   (unicode.IsSpace, as strings.TrimSpace removes them) at each end, and it neither starts nor ends with a blank rune *)
Theorem C05_items_trimmed : forall a it, In it (enum_items a) ->
  exists raw l r, In raw (split_on ","%byte a) /\ raw = l ++ it ++ r /\ blanks l /\ blanks r /\
                  ~ starts_blank it /\ ~ ends_blank it.
Proof.
  intros a it H. apply in_map_iff in H. destruct H as (raw & E & Hin). subst it.
  destruct (trim_space_spec raw) as (l & r & E & Bl & Br & N1 & N2). exists raw, l, r. repeat split; assumption.
Qed.
Print Assumptions C05_items_trimmed.

(* ... and that piece is unique: the blank runes form a prefix-free code whose non-initial bytes start no rune, so any
   decomposition raw = blanks ++ m ++ blanks with m free of blanks at both ends has m = the item *)
Theorem C05_item_is_the_trimmed_piece : forall raw l m r, raw = l ++ m ++ r -> blanks l -> blanks r ->
  ~ starts_blank m -> ~ ends_blank m -> m = trim_space raw.
Proof. exact trim_space_unique. Qed.
Print Assumptions C05_item_is_the_trimmed_piece.

Theorem C05_item_without_blanks_kept : forall s, ~ starts_blank s -> ~ ends_blank s -> trim_space s = s.
Proof. exact trim_space_fix. Qed.

(* U+00A0, U+3000 and the vertical tab next to a comma are blanks; a blank inside an item stays *)
Example C05_trim_unicode :
  enum_items (flat_map (fun n => match Byte.of_N n with Some b => [b] | None => [] end)
                       [114; 101; 100; 44; 194; 160; 103; 32; 110; 227; 128; 128; 44; 98; 11]%N) = [bs "red"; bs "g n"; bs "b"].
Proof. vm_compute. reflexivity. Qed.

(* C06: alpha = only ASCII letters (empty allowed); numeric = one or more ASCII digits *)
Theorem C06_alpha : forall s, IsValidAlpha s = true <-> Forall ascii_letter s.
Proof. exact IsValidAlpha_exact. Qed.
Print Assumptions C06_alpha.
Theorem C06_numeric : forall s, IsNumeric s = true <-> (s <> [] /\ Forall ascii_digit s).
Proof. exact IsNumeric_exact. Qed.
Print Assumptions C06_numeric.

(* ipv4 / ipv6 are defined by the standard library's classification (oracle ip_class) *)
Theorem C06_ip : forall ipc tab t s, is_string_type t = true ->
  violated ipc tab RIpv4 None t (VStr s) = Some (match ipc s with IsV4 => false | _ => true end) /\
  violated ipc tab RIpv6 None t (VStr s) = Some (match ipc s with IsV6 => false | _ => true end).
Proof. intros ipc tab t s Ht. unfold violated. rewrite Ht. auto. Qed.
