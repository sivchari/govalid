(* C19 — validating a valid value reaches no allocation site. Partial: what the Go compiler's escape analysis and the
   standard library do is measured (testing.AllocsPerRun), not modelled. *)
From GV Require Import Base.Bytes GoLite.Sem.
From GV Require Import Gen.Template Gen.Spec Gen.Guard Gen.Typed Gen.GenExact.

(* the only allocation sites of the emitted code are `err.Value = t.F` (boxing) and `errs = append(errs, err)`;
   both are inside a check's body, so a run in which no rule fails executes none *)
Theorem C19_valid_path_alloc_free : forall ipc tab d f root,
  in_guard tab d = true -> gen_file tab d = Some f -> wt_struct d root ->
  expected ipc tab d root = [] ->
  let o := exec_file ipc background f (Some root) in
  o_res o = RStuck \/ (o_res o = RNil /\ s_allocs (o_st o) = 0).
Proof.
  intros ipc tab d f root G Hf W E.
  destruct (gen_exact ipc tab d f root G Hf W) as [H|(_ & Hn & _ & Ha)]; [left; exact H|].
  right. split; [apply Hn; exact E|]. rewrite Ha, E. reflexivity.
Qed.
Print Assumptions C19_valid_path_alloc_free.

(* without the "ill-typed" alternative: for declarations whose marker parameters are in the documented language *)
Theorem C19_valid_path_alloc_free_typed : forall ipc tab d f root,
  in_guard tab d = true -> params_ok tab d = true -> gen_file tab d = Some f -> wt_struct d root ->
  expected ipc tab d root = [] ->
  let o := exec_file ipc background f (Some root) in
  o_res o = RNil /\ s_allocs (o_st o) = 0.
Proof.
  intros ipc tab d f root G P Hf W E.
  destruct (gen_exact_typed ipc tab d f root G P Hf W) as (_ & _ & Hn & _ & Ha).
  split; [apply Hn; exact E|]. rewrite Ha, E. reflexivity.
Qed.
Print Assumptions C19_valid_path_alloc_free_typed.
