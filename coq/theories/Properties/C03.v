(* C03 — string length markers count Unicode code points, not bytes. *)
From GV Require Import Base.Bytes Base.Utf8 Base.Utf8Spec GoLite.Syntax GoLite.Sem Gen.Decl Gen.Rules Gen.Spec Gen.GenProofs1.

(* what is counted: the greedy reading of an arbitrary byte string in which every RFC 3629 encoding of a scalar
   value is one code point and every byte that starts no valid sequence counts as one (cpcount) - and
   utf8.RuneCountInString (rune_count) computes exactly that number, which is unique *)
Theorem C03_count_is_code_points : forall s : bytes, cpcount s (rune_count s).
Proof. exact cpcount_rune_count. Qed.
Print Assumptions C03_count_is_code_points.

Theorem C03_count_unique : forall (s : bytes) n, cpcount s n -> n = rune_count s.
Proof. exact cpcount_unique. Qed.
Print Assumptions C03_count_unique.

Theorem C03_valid_text : forall cs : list N, Forall scalar cs -> rune_count (concat (map utf8_encode cs)) = length cs.
Proof. exact rune_count_valid_text. Qed.
Print Assumptions C03_valid_text.

Theorem C03_decoder_inverts_encoder : forall c r, scalar c -> decode_rune (utf8_encode c ++ r) = (c, length (utf8_encode c)).
Proof. exact decode_encode. Qed.
Print Assumptions C03_decoder_inverts_encoder.

(* the three markers compare that count with N *)
Theorem C03_meaning : forall ipc tab a t s z n,
  is_string_type t = true -> num_of tab a = Some n -> nl_int n = Some z ->
  violated ipc tab RMinlength (Some a) t (VStr s) = Some (Z.ltb (Z.of_nat (rune_count s)) z) /\
  violated ipc tab RMaxlength (Some a) t (VStr s) = Some (Z.ltb z (Z.of_nat (rune_count s))) /\
  violated ipc tab RLength (Some a) t (VStr s) = Some (negb (Z.eqb (Z.of_nat (rune_count s)) z)).
Proof. intros ipc tab a t s z n Ht Hn Hz. unfold violated. rewrite Ht, Hn, Hz. auto. Qed.

(* and the emitted condition decides that verdict (all rules: rule_condition_exact in C0456.v) *)
Theorem C03_condition_exact : forall ipc tab r f t arg c cur v b,
  make_cond tab r f t arg = WithCond c -> get_field cur f = Some v -> has_type v t = true ->
  eval_cond ipc (VStruct cur) c = CB b -> violated ipc tab r arg t v = Some b.
Proof. exact cond_sound. Qed.

Example C03_bytes_vs_code_points : rune_count (utf8_encode 233 ++ utf8_encode 8364 ++ utf8_encode 128512) = 3 /\
                                   length (utf8_encode 233 ++ utf8_encode 8364 ++ utf8_encode 128512) = 9.
Proof. vm_compute. split; reflexivity. Qed.
Example C03_stray_bytes : rune_count [x80; xff; xe2; x82] = 4.
Proof. vm_compute. reflexivity. Qed.
