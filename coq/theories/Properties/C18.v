(* C18 — legacy and new marker spellings are equivalent; migrate rewrites only markers.
   The proofs not given here are in Misc/MigrateProofs.v. *)
From GV Require Import Base.Bytes Base.StrOps Gen.Decl Gen.Template Misc.Migrate Misc.MigrateProofs.

(* the two spellings of one marker are parsed to the same marker content *)
Theorem C18_spelling : forall r : bytes,
  parse_marker_comment (old_prefix ++ r) = parse_marker_comment (new_prefix ++ r).
Proof. exact spelling_equiv. Qed.
Print Assumptions C18_spelling.

(* hence the generated file is identical for a declaration and its re-spelled version
   (which is also what `migrate` turns the declaration into) *)
Theorem C18_output_unchanged : forall tab d, gen_file tab (sdecl_to_new d) = gen_file tab d.
Proof. exact gen_file_spelling. Qed.
Print Assumptions C18_output_unchanged.

Theorem C18_idempotent : forall s : bytes, migrate_content (migrate_content s) = migrate_content s.
Proof. exact migrate_idempotent. Qed.
Print Assumptions C18_idempotent.

(* line by line: unchanged, or a legacy marker comment whose indentation and tail are kept;
   the number of lines (every '\n'), every '\r' and the final-newline status are preserved *)
Theorem C18_only_marker_lines : forall s : bytes,
  Forall2 line_rel (split_on nl s) (split_on nl (migrate_content s)).
Proof. exact migrate_same_lines. Qed.
Print Assumptions C18_only_marker_lines.

(* a line that starts inside a raw string literal or a block comment is never rewritten *)
Theorem C18_lookalikes_preserved : forall st l, st <> SCode -> migrate_line st l = l.
Proof. exact migrate_line_inside. Qed.
Print Assumptions C18_lookalikes_preserved.

Theorem C18_dry_run_writes_nothing : forall s : bytes, migrate_file true s = [].
Proof. exact dry_run_writes_nothing. Qed.
Print Assumptions C18_dry_run_writes_nothing.

Theorem C18_second_run_is_noop : forall s : bytes, migrate_file false (migrate_content s) = [].
Proof. intro s. unfold migrate_file. rewrite migrate_then_nothing. reflexivity. Qed.
Print Assumptions C18_second_run_is_noop.

Example C18_example :
  migrate_content (bs "x := `" ++ [nl] ++ bs "// +govalid:required" ++ [nl] ++ bs "`" ++ [nl] ++ [x09] ++ bs "// +govalid:gt=1")
  = bs "x := `" ++ [nl] ++ bs "// +govalid:required" ++ [nl] ++ bs "`" ++ [nl] ++ [x09] ++ bs "//govalid:gt=1".
Proof. vm_compute. reflexivity. Qed.
