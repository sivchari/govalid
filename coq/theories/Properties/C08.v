(* C08 — generated code compiles: the part of "type-checks with no missing or duplicate declarations" that is
   a property of the generator's naming scheme.  The proofs not given here are in Gen/Names.v.  What the Go
   compiler decides beyond this (imports, gofmt, the full type checker) is decided by the compiler on
   every corpus package, see DESIGN.md section 5 C08. *)
From GV Require Import Base.Bytes GoLite.Syntax GoLite.Sem.
From GV Require Import Gen.Decl Gen.Rules Gen.Template Gen.Memory Gen.Guard Gen.GenProofs1 Gen.Typed Gen.GenExact Gen.Names Gen.Harness.

(* no missing declaration: every error variable that a check of the emitted function copies, and the
   nil-receiver sentinel, is declared by the file's var block — for EVERY declaration (any nesting, any marker
   mix, struct-level markers, known-finding shapes included) *)
Theorem C08_no_missing_declaration : forall tab d f,
  gen_file tab d = Some f -> uses_declared_b f = true.
Proof. exact gen_uses_declared. Qed.
Print Assumptions C08_no_missing_declaration.

(* no duplicate declaration, flat structs: for every struct without inline nested structs whose field names
   do not differ by a trailing "Min"/"Max" (finding D20), whatever markers (field- and struct-level, repeated,
   inapplicable) it carries, the declared names of the emitted var block are pairwise distinct *)
Theorem C08_no_duplicate_declaration_flat : forall tab d f,
  flat d = true -> no_clash (field_names d) = true -> gen_file tab d = Some f ->
  nodup_b (declared_names f) = true.
Proof. exact flat_names_distinct. Qed.
Print Assumptions C08_no_duplicate_declaration_flat.

(* the emitted file is the validator of the struct it was generated for: it carries the interface assertion,
   the nil guard on the ErrNil<T> sentinel, the standard tail and the three delegating wrappers *)
Theorem C08_file_shape : forall tab d f,
  gen_file tab d = Some f ->
  f_type f = sd_name d /\ In (DAssert (bs "govalid.Validator") (sd_name d)) (f_decls f) /\
  f_nilguard f = Some (bs "ErrNil" ++ sd_name d) /\ f_tail_ok f = true /\ f_wrappers_ok f = true.
Proof. intros tab d f H. apply gen_file_inv in H as [_ ->]. cbn. auto. Qed.
Print Assumptions C08_file_shape.

(* generation is a total function of the declaration: a file is produced iff some marker applies to some field *)
Theorem C08_generation_total : forall tab d,
  (exists f, gen_file tab d = Some f) <-> analyze tab d <> [].
Proof.
  intros tab d. split.
  - intros [f H]. apply gen_file_inv in H. apply H.
  - intro H. eexists. apply gen_file_inv. split; [exact H|reflexivity].
Qed.
Print Assumptions C08_generation_total.

(* the two naming predicates hold of the file govalid actually emitted, once the kernel has accepted the run's certificate *)
Theorem C08_emitted_file : forall tab d (p : option file) f,
  opt_file_eqb p (gen_file tab d) = true -> p = Some f ->
  uses_declared_b f = true /\
  (flat d = true -> no_clash (field_names d) = true -> nodup_b (declared_names f) = true).
Proof.
  intros tab d p f C ->. apply opt_file_eqb_eq in C. symmetry in C. split.
  - exact (gen_uses_declared tab d f C).
  - intros F N. exact (flat_names_distinct tab d f F N C).
Qed.
Print Assumptions C08_emitted_file.

(* what the hypotheses exclude is refuted on the faithful model (open findings D20, D9) *)
Definition tab5 : numtab := [(bs "5", {| nl_int := Some 5%Z; nl_f32 := 1084227584%Z; nl_f64 := 4617315517961601024%Z |})].
(* XMin //length=5 next to X //minlength=5: both declare Err<T>XMinLengthValidation *)
Definition d20_decl : sdecl :=
  {| sd_name := bs "T"; sd_doc := [];
     sd_fields := [FPlain [bs "XMin"] [bs "//govalid:length=5"] (TBasic BString);
                   FPlain [bs "X"] [bs "//govalid:minlength=5"] (TBasic BString)] |}.
Theorem C08_min_max_clash_refuted :
  flat d20_decl = true /\ no_clash (field_names d20_decl) = false /\ kf_duplicate_names tab5 d20_decl = true.
Proof. vm_compute. auto. Qed.

(* the same field name in two inline nested structs: the legacy aliases collide *)
Definition d9_decl : sdecl :=
  {| sd_name := bs "T"; sd_doc := [];
     sd_fields := [FNested [bs "A"] [] [FPlain [bs "Name"] [bs "//govalid:required"] (TBasic BString)];
                   FNested [bs "B"] [] [FPlain [bs "Name"] [bs "//govalid:required"] (TBasic BString)]] |}.
Theorem C08_nested_alias_clash_refuted :
  flat d9_decl = false /\ kf_duplicate_names [] d9_decl = true.
Proof. vm_compute. auto. Qed.

(* the checks are well-typed: for a declaration whose marker parameters are in the documented language (params_ok) no
   emitted condition is ill-typed on any value of the declared field types (in the model: RStuck, "the Go compiler would
   reject the comparison") *)
Theorem C08_documented_parameters_are_well_typed : forall ipc tab d f root,
  in_guard tab d = true -> params_ok tab d = true -> gen_file tab d = Some f -> wt_struct d root ->
  o_res (exec_file ipc background f (Some root)) <> RStuck.
Proof. intros ipc tab d f root G P Hf W. exact (proj1 (gen_exact_typed ipc tab d f root G P Hf W)). Qed.
Print Assumptions C08_documented_parameters_are_well_typed.

(* each condition on its own: the factory's output for a documented parameter evaluates to a boolean or panics, never "ill-typed" *)
Theorem C08_condition_well_typed : forall ipc tab r f t arg c cur v,
  rule_params_ok tab r arg t = true ->
  make_cond tab r f t arg = WithCond c -> get_field cur f = Some v -> has_type v t = true ->
  eval_cond ipc (VStruct cur) c <> CStuck.
Proof. exact cond_typed. Qed.
Print Assumptions C08_condition_well_typed.

(* an undocumented parameter is refuted on the model: gt=abc has no value, the comparison is ill-typed *)
Theorem C08_undocumented_parameter_refuted :
  let d := {| sd_name := bs "T"; sd_doc := []; sd_fields := [FPlain [bs "A"] [bs "//govalid:gt=abc"] (TBasic (BInt IInt))] |} in
  params_ok [] d = false /\
  exists f, gen_file [] d = Some f /\ o_res (exec_file (fun _ => NotIP) background f (Some (VStruct [(bs "A", VInt 1%Z)]))) = RStuck.
Proof. split; [reflexivity|]. eexists. split; [reflexivity|]. vm_compute. reflexivity. Qed.

(* output files: the structs of one source file are written to pairwise different files exactly when their lower-cased
   names are pairwise different (for any lower-casing function; the generator uses strings.ToLower) *)
Theorem C08_output_files_distinct : forall lower src (Ts : list ident),
  NoDup (map lower Ts) <-> NoDup (map (out_file lower src) Ts).
Proof. exact out_files_distinct. Qed.
Print Assumptions C08_output_files_distinct.

(* open finding D36: type User and type user in one source file share x_user_validator.go *)
Theorem C08_case_collision_refuted :
  bs "User" <> bs "user" /\ out_file ascii_lower (bs "x") (bs "User") = out_file ascii_lower (bs "x") (bs "user").
Proof. split; [discriminate|vm_compute; reflexivity]. Qed.

(* non-vacuity *)
Definition ex_decl : sdecl :=
  {| sd_name := bs "User"; sd_doc := [bs "//govalid:required"];
     sd_fields := [FPlain [bs "Name"; bs "Nick"] [bs "//govalid:required"; bs "//govalid:maxlength=5"; bs "//govalid:minlength=5"; bs "//govalid:length=5"] (TBasic BString);
                   FPlain [bs "Age"] [bs "//govalid:gt=5"; bs "//govalid:lte=5"] (TBasic (BInt I8));
                   FPlain [bs "Tags"] [bs "//govalid:maxitems=5"] TSlice] |}.
Example C08_hypotheses_inhabited :
  flat ex_decl = true /\ no_clash (field_names ex_decl) = true /\
  (exists f, gen_file tab5 ex_decl = Some f /\ length (declared_names f) = 14).
Proof. split; [reflexivity|]. split; [reflexivity|]. eexists. split; [reflexivity|]. vm_compute. reflexivity. Qed.
