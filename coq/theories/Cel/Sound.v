(* Soundness of the CEL -> Go translation on the typed fragment (Cel/Typing.v): the translation of an expression
   never panics and is never ill-typed, and whenever cel-go yields a value it evaluates to the related Go value. *)
From GV Require Import Base.Bytes Base.GoFloat Cel.Syntax Cel.CelSem Cel.GoSem Cel.Translate Cel.Env Cel.Typing Cel.SoundBase.
Local Open Scope Z_scope.

(* the size of an expression, the measure of the induction (sound_aux); CEL's size() is CelSem.csize *)
Fixpoint csize (e : cexpr) : nat :=
  let fix sum (l : list cexpr) : nat := match l with [] => O | x :: r => (csize x + sum r)%nat end in
  match e with
  | EIdent _ | EConst _ | EStruct | EOther => 1%nat
  | ESelect a _ _ | ECall1 _ a | EMeth0 _ a => S (csize a)
  | ECall2 _ a b | EMeth1 _ a b => S (csize a + csize b)
  | ECall3 _ a b c => S (csize a + csize b + csize c)
  | EList l => S (sum l)
  | ECompr _ r _ i c s res => S (csize r + csize i + csize c + csize s + csize res)
  end.

Lemma csize_call1 fn a : (csize a < csize (ECall1 fn a))%nat.
Proof. cbn [csize]. lia. Qed.
Lemma csize_call2 fn a b : (csize a < csize (ECall2 fn a b) /\ csize b < csize (ECall2 fn a b))%nat.
Proof. cbn [csize]. lia. Qed.
Lemma csize_meth1 fn a b : (csize a < csize (EMeth1 fn a b) /\ csize b < csize (EMeth1 fn a b))%nat.
Proof. cbn [csize]. lia. Qed.
Lemma csize_call3 fn c a b : (csize c < csize (ECall3 fn c a b))%nat.
Proof. cbn [csize]. lia. Qed.
Lemma csize_list1 t : (csize t < csize (EList [t]))%nat.
Proof. cbn. lia. Qed.
Lemma csize_compr x r acc i c s res :
  (csize r < csize (ECompr x r acc i c s res) /\ csize s < csize (ECompr x r acc i c s res))%nat.
Proof. cbn [csize]. lia. Qed.

Lemma cequal_int m k : cequal (VInt m) (VInt k) = (m =? k).
Proof. cbn. rewrite Z.eqb_compare. destruct (m ?= k); reflexivity. Qed.

Lemma ccmp_eq_total va vb : ccmp OpEq (CV va) (CV vb) = CV (VBool (cequal va vb)).
Proof. reflexivity. Qed.

Lemma lift2_err_r f x : lift2 f x CErr = CErr.
Proof. destruct x; reflexivity. Qed.
Lemma ccmp_err_r op x : ccmp op x CErr = CErr.
Proof. destruct x; reflexivity. Qed.

Lemma paren_eval rm pf fg pd fs vars g : geval rm pf fg pd fs vars (paren g) = geval rm pf fg pd fs vars g.
Proof.
  assert (E : forall e, geval rm pf fg pd fs vars (GParen e) = geval rm pf fg pd fs vars e) by reflexivity.
  destruct g; try apply E; reflexivity.
Qed.

Lemma s_this_not_value : bytes_eqb s_this s_value = false.
Proof. reflexivity. Qed.

Lemma bytes_eqb_sym a b : bytes_eqb a b = bytes_eqb b a.
Proof.
  destruct (bytes_eqb a b) eqn:E.
  - apply bytes_eqb_eq in E. subst. symmetry. apply bytes_eqb_refl.
  - symmetry. apply bytes_eqb_neq. apply bytes_eqb_neq in E. congruence.
Qed.

Lemma gbinop_str_eq x s : gbinop BEq (GStr x) (GStr s) = GV (GBool (bytes_eqb x s)).
Proof. cbn. rewrite <- bytes_cmp_eq. destruct (bytes_cmp x s); reflexivity. Qed.

Lemma glookup_map {A B} (f : A -> B) (l : list (ident * A)) x :
  glookup (map (fun nv => (fst nv, f (snd nv))) l) x = option_map f (glookup l x).
Proof.
  induction l as [|[n v] l IH]; [reflexivity|]. cbn [map glookup fst snd].
  destruct (bytes_eqb n x); [reflexivity|exact IH].
Qed.

Lemma F2_length {A B} (P : A -> B -> Prop) l l' : Forall2 P l l' -> length l = length l'.
Proof. induction 1; cbn; congruence. Qed.

Lemma F2_impl {A B} (P Q : A -> B -> Prop) l l' : (forall a b, P a b -> Q a b) -> Forall2 P l l' -> Forall2 Q l l'.
Proof. intros H F. induction F; constructor; auto. Qed.

Lemma Forall2_map_same {A B C} (P : B -> C -> Prop) (f : A -> B) (g : A -> C) l :
  (forall x, In x l -> P (f x) (g x)) -> Forall2 P (map f l) (map g l).
Proof. induction l; cbn; intro H; constructor; auto. Qed.

Lemma existsb_map {A B} (f : B -> bool) (g : A -> B) l : existsb f (map g l) = existsb (fun x => f (g x)) l.
Proof. induction l; cbn; congruence. Qed.

Lemma obind_inv {A B} (o : option A) (f : A -> option B) y : obind o f = Some y -> exists x, o = Some x /\ f x = Some y.
Proof. destruct o as [x|]; [eauto|discriminate]. Qed.
Lemma omap_inv {A B} (f : A -> B) (o : option A) y : omap f o = Some y -> exists x, o = Some x /\ y = f x.
Proof. destruct o as [x|]; intro H; [injection H as <-; eauto | discriminate H]. Qed.
Lemma sbool_inv (o k : option sty) t : match o with Some SBool => k | _ => None end = Some t -> o = Some SBool /\ k = Some t.
Proof. destruct o as [[]|]; try discriminate. auto. Qed.

Lemma in_kind_IInt z : in_kind IInt z = in_i64 z.
Proof. reflexivity. Qed.

Lemma parse_int_range s z : parse_int s = Some z -> in_i64 z = true.
Proof.
  unfold parse_int.
  assert (B : forall neg r, match r with
                            | [] => None
                            | _ :: _ => match parse_digits r 0 with
                                        | Some z0 => let v := if neg : bool then - z0 else z0 in if in_i64 v then Some v else None
                                        | None => None
                                        end
                            end = Some z -> in_i64 z = true).
  { intros neg r. destruct r; [discriminate|]. destruct (parse_digits (b :: r) 0); [|discriminate].
    cbv zeta. intro H. apply if_some in H as [E <-]. exact E. }
  destruct s as [|c r]; [discriminate|].
  destruct (beq c c_plus); [exact (B false r)|]. destruct (beq c c_hyphen); [exact (B true r)|exact (B false (c :: r))].
Qed.

Lemma item_like_fresh fuel n el coll : item_like n = true -> item_like (fresh_var fuel n el coll) = true.
Proof.
  revert n. induction fuel as [|f IH]; intros n H; cbn [fresh_var]; [exact H|].
  destruct (text_has n el || text_has n coll); [|exact H]. apply IH. cbn [item_like]. rewrite H.
  apply orb_true_r.
Qed.

(* tr_in looks at its first argument only to recognise a literal list *)
Lemma tr_in_nonlist b el coll :
  match b with EList _ => False | _ => True end -> match coll with GIfaceList _ => False | _ => True end ->
  exists v : ident, item_like v = true /\
    tr_in b el coll =
    if starts_with_t coll && starts_quote el && ends_quote el then Some (GSlicesContains coll el)
    else Some (GExists v coll (GBin BEq (GVar v) el)).
Proof.
  intros Hb Hc. exists (fresh_var 64 s_item el coll). split; [apply item_like_fresh; reflexivity|].
  transitivity (tr_in EOther el coll); [destruct b; try contradiction; reflexivity|].
  destruct coll; try contradiction; reflexivity.
Qed.

Lemma macro_of_spec x acc init cond step res m :
  macro_of x acc init cond step res = Some m ->
  res = (match m with MExistsOne => ECall2 FEq (EIdent acc) (EConst (KInt 1)) | _ => EIdent acc end) /\
  match m with
  | MAll => init = EConst (KBool true) /\ cond = ECall1 FNotStrictlyFalse (EIdent acc) /\ exists body, step = ECall2 FAnd (EIdent acc) body
  | MExists => init = EConst (KBool false) /\ cond = ECall1 FNotStrictlyFalse (ECall1 FNot (EIdent acc)) /\ exists body, step = ECall2 FOr (EIdent acc) body
  | MExistsOne => init = EConst (KInt 0) /\ cond = EConst (KBool true) /\
                  exists body, step = ECall3 FTernary body (ECall2 FAdd (EIdent acc) (EConst (KInt 1))) (EIdent acc)
  | MFilter => init = EList [] /\ cond = EConst (KBool true) /\
               exists body, step = ECall3 FTernary body (ECall2 FAdd (EIdent acc) (EList [EIdent x])) (EIdent acc)
  | MMap => init = EList [] /\ cond = EConst (KBool true) /\ exists t, step = ECall2 FAdd (EIdent acc) (EList [t])
  end.
Proof.
  assert (A : forall e, match e with EIdent y => bytes_eqb y acc | _ => false end = true -> e = EIdent acc).
  { intros e H. destruct e; try discriminate H. apply bytes_eqb_eq in H. subst. reflexivity. }
  unfold macro_of. intro H.
  (* the conclusion is large and every branch of the case analysis would carry a copy: it is named until a shape is reached *)
  pattern init, cond, step, res. set (P := fun _ _ _ _ : cexpr => _).
  (* every variable scrutinised on the way to a [Some] is taken apart; what is left is one goal for each macro *)
  repeat match type of H with match ?e with _ => _ end = Some _ => is_var e; destruct e; try discriminate H end.
  all: unfold P; apply if_some in H as [E <-]; rewrite !andb_true_iff in E; decompose [and] E; clear E.
  all: repeat match goal with X : _ = true |- _ => first [apply A in X | apply bytes_eqb_eq in X]; subst end.
  all: eauto 6.
Qed.

Section Sound.
  Variable re_match : bytes -> bytes -> option bool.
  Variable parse_float : bytes -> option Z.
  Variable fmt_g : Z -> bytes.
  Variable parse_dur : bytes -> option Z.
  Variable re_ok : bytes -> bool.
  (* assumptions on the oracles (Go's standard library): a pattern accepted by regexp.Compile matches without
     failing; time.ParseDuration returns an int64 *)
  Hypothesis re_ok_total : forall p, re_ok p = true -> forall s, re_match p s <> None.
  Hypothesis parse_dur_range : forall s z, parse_dur s = Some z -> in_i64 z = true.

  Variable fts : list (ident * fty).
  Variable fname : ident.
  Variable rho : struct_val.
  Hypothesis Hrho : struct_ok fts rho = true.

  Notation CE := (ceval re_match parse_float fmt_g parse_dur).
  Notation GE := (geval re_match parse_float fmt_g parse_dur (go_fields rho)).
  Notation TR := (tr fname re_ok).

  (* the constructs the proof covers; the elements of a literal list on the right of `in` are not looked at *)
  Fixpoint simple (e : cexpr) : bool :=
  match e with
  | EIdent _ | EConst _ => true
  | ESelect a _ _ | ECall1 _ a => simple a
  | ECall2 FIn a b => simple a && match b with EList _ => true | _ => simple b end
  | ECall2 _ a b | EMeth1 _ a b => simple a && simple b
  | ECompr _ r _ _ _ step _ =>
      simple r && match step with
                  | ECall2 FAnd _ c | ECall2 FOr _ c | ECall3 FTernary c _ _ => simple c
                  | ECall2 FAdd _ (EList [t]) =>
                      (* a ternary inside a map transform would make the translator classify the macro as a filter *)
                      simple t && match TR t with Some gt => negb (has_tern gt) | None => false end
                  | _ => false
                  end
  | _ => false
  end.

  Definition this_map : cval := VMap (map (fun nv => (VString (fst nv), cval_of (snd nv))) rho).

  Definition env_ok (G : tenv) (cenv : cenv) (gvars : list (ident * gval)) : Prop :=
    te_fields G = fts /\ te_fname G = fname /\
    clookup cenv s_value = (match glookup rho fname with Some v => CV (cval_of v) | None => CErr end) /\
    (existsb (fun v => bytes_eqb (fst v) s_this) (te_vars G) = false -> clookup cenv s_this = CV this_map) /\
    (forall x t, bytes_eqb x s_value = false -> glookup (te_vars G) x = Some t ->
                 exists v w, clookup cenv x = CV v /\ glookup gvars x = Some w /\ vrel t v w).

  (* what the induction proves of an expression, under given environments; one lemma [sound_X] per construct X says
     that it is inherited from the subexpressions ([const_R] and [binop_case] for constants and binary operators) *)
  Definition sound_at (G : tenv) (cenv : cenv) (vars : list (ident * gval)) (e : cexpr) : Prop :=
    forall t g, cty G e = Some t -> TR e = Some g -> R t (CE cenv e) (GE vars g).

  Lemma field_lookup ts r f ft : struct_ok ts r = true -> glookup ts f = Some ft ->
    exists v, glookup r f = Some v /\ has_fty ft v = true.
  Proof.
    revert r. induction ts as [|[n t] ts IH]; intros [|[m v] r] H Hf; cbn in *; try discriminate.
    apply andb_true_iff in H as [H Hr]. apply andb_true_iff in H as [Hn Ht].
    apply bytes_eqb_eq in Hn. subst m.
    destruct (bytes_eqb n f); [inversion Hf; subst; eauto|]. apply IH; assumption.
  Qed.

  Lemma fval_vrel ft v t : has_fty ft v = true -> sty_of_fty ft = Some t -> vrel t (cval_of v) (gval_of v).
  Proof.
    destruct ft, v; intros H Ht; try discriminate; inversion Ht; cbn [vrel cval_of gval_of].
    - apply andb_true_iff in H as [Hk Hz]. apply ikind_eqb_eq in Hk. subst. eauto.
    - eauto.
    - eauto.
    - eauto.
    - exists (map VString l), (map GStr l). split; [reflexivity|]. split; [reflexivity|]. split.
      + apply Forall2_map_same. intros x _. eauto.
      + rewrite map_length. exact H.
    - apply andb_true_iff in H as [H Hl]. apply andb_true_iff in H as [Hk Hz]. apply ikind_eqb_eq in Hk. subst k0.
      exists (map (cint k) l), (map (GInt k) l). split; [reflexivity|]. split; [reflexivity|]. split.
      + apply Forall2_map_same. intros x Hx. exists x. rewrite forallb_forall in Hz. auto.
      + rewrite map_length. exact Hl.
    - apply andb_true_iff in H as [_ Hl]. eexists _, _. split; [reflexivity|]. split; [reflexivity|].
      rewrite !map_length. split; [reflexivity|exact Hl].
  Qed.

  Lemma go_field vars f v : glookup rho f = Some v -> GE vars (GSel GT f) = GV (gval_of v).
  Proof.
    intro H. cbn [geval gbind]. rewrite (glookup_map gval_of). rewrite H. reflexivity.
  Qed.

  Lemma this_find r f : map_find (map (fun nv => (VString (fst nv), cval_of (snd nv))) r) (VString f) = option_map cval_of (glookup r f).
  Proof.
    induction r as [|[n v] r IH]; [reflexivity|]. cbn [map map_find glookup fst snd].
    change (cequal (VString n) (VString f)) with (bytes_eqb n f).
    destruct (bytes_eqb n f); [reflexivity|exact IH].
  Qed.

  Lemma field_R G f t : te_fields G = fts -> field_sty G f = Some t ->
    exists v, glookup rho f = Some v /\ vrel t (cval_of v) (gval_of v).
  Proof.
    unfold field_sty. intros -> H. destruct (glookup fts f) as [ft|] eqn:E; [|discriminate].
    destruct (field_lookup _ _ _ _ Hrho E) as [v [Hv Ht]]. exists v. split; [exact Hv|]. eapply fval_vrel; eassumption.
  Qed.

  Lemma R_some t oc g : R t oc g -> exists v w c, g = GV w /\ vrel t v w /\ oc = Some c /\ (c = CV v \/ c = CErr).
  Proof. intros [v [w [Hg [Hv [Hc | Hc]]]]]; eauto 8. Qed.

  Lemma R_bool oc g : R SBool oc g -> exists b, g = GV (GBool b) /\ (oc = Some (CV (VBool b)) \/ oc = Some CErr).
  Proof. intros [v0 [w [-> [[b [-> ->]] H]]]]. eauto. Qed.

  Lemma R_bool_intro b oc : (oc = Some (CV (VBool b)) \/ oc = Some CErr) -> R SBool oc (GV (GBool b)).
  Proof. intro H. exists (VBool b), (GBool b). split; [reflexivity|]. split; [cbn; eauto|exact H]. Qed.

  Lemma R_val t c g v w : g = GV w -> vrel t v w -> (c = CErr \/ c = CV v) -> R t (Some c) g.
  Proof. intros Hg Hv Hc. exists v, w. split; [exact Hg|]. split; [exact Hv|]. destruct Hc as [-> | ->]; auto. Qed.

  Lemma R_err t oc g : R t oc g -> R t (Some CErr) g.
  Proof. intros [v [w [Hg [Hv _]]]]. exists v, w. auto. Qed.

  (* A CEL operator that yields an error on an error, against a Go expression [gr] built on the operands' translations:
     it is enough to relate the results on related VALUES of the operands. *)
  Lemma R_strict1 ta t (F : cres -> option cres) oa ga gr :
    F CErr = Some CErr -> R ta oa ga ->
    (forall va wa, vrel ta va wa -> ga = GV wa -> R t (F (CV va)) gr) ->
    R t (match oa with Some x => F x | None => None end) gr.
  Proof.
    intros HF [va [wa [Hg [Hv Hc]]]] H. specialize (H va wa Hv Hg).
    destruct Hc as [-> | ->]; [exact H | rewrite HF; exact (R_err _ _ _ H)].
  Qed.

  Lemma R_strict2 ta tb t (F : cres -> cres -> cres) oa ob ga gb gr :
    (forall y, F CErr y = CErr) -> (forall x, F x CErr = CErr) ->
    R ta oa ga -> R tb ob gb ->
    (forall va wa vb wb, vrel ta va wa -> vrel tb vb wb -> ga = GV wa -> gb = GV wb -> R t (Some (F (CV va) (CV vb))) gr) ->
    R t (match oa, ob with Some x, Some y => Some (F x y) | _, _ => None end) gr.
  Proof.
    intros Hl Hr [va [wa [Hga [Hva Hca]]]] [vb [wb [Hgb [Hvb Hcb]]]] H. specialize (H va wa vb wb Hva Hvb Hga Hgb).
    destruct Hca as [-> | ->], Hcb as [-> | ->]; rewrite ?Hl, ?Hr; [exact H | exact (R_err _ _ _ H) ..].
  Qed.

  Lemma gbin_values vars op a b x y : op <> BAnd -> op <> BOr -> GE vars a = GV x -> GE vars b = GV y ->
    GE vars (GBin op a b) = gbinop op x y.
  Proof. intros H1 H2 Ha Hb. cbn [geval]. rewrite Ha, Hb. destruct op; [destruct (H1 eq_refl) | destruct (H2 eq_refl) | reflexivity ..]. Qed.

  Lemma operand_R G cenv vars parent arg right t conv :
    cty G arg = Some t -> R t (CE cenv arg) (GE vars conv) ->
    R t (CE cenv arg) (GE vars (operand_of parent arg right conv)).
  Proof.
    intros Hty HR. unfold operand_of.
    destruct (go_prec parent =? 0)%nat; [exact HR|].
    assert (P : forall c : bool, R t (CE cenv arg) (GE vars (if c then paren conv else conv)))
      by (intros []; rewrite ?paren_eval; exact HR).
    destruct arg; try exact HR; try apply P.
    destruct k; try exact HR.
    destruct (3 <? go_prec parent)%nat; [|exact HR].
    apply if_some in Hty as [_ <-].
    exists (VDouble bits), (GUFloat bits). split; [reflexivity|]. split; [cbn; auto|left; reflexivity].
  Qed.

  Lemma not_in_scope G x : existsb (fun xv => item_like (fst xv)) (te_vars G) = false -> item_like x = true ->
    glookup (te_vars G) x = None.
  Proof.
    intros H Hx. induction (te_vars G) as [|[y t] l IH]; [reflexivity|]. cbn [existsb fst] in H. apply orb_false_iff in H as [Hy Hl].
    cbn [glookup]. destruct (bytes_eqb y x) eqn:E; [apply bytes_eqb_eq in E; subst y; congruence|]. apply IH. exact Hl.
  Qed.

  (* a Go variable that no CEL variable in scope is named after can be bound without disturbing the environment *)
  Lemma env_ok_extra G cenv gvars x w : env_ok G cenv gvars -> glookup (te_vars G) x = None -> env_ok G cenv ((x, w) :: gvars).
  Proof.
    intros [Hf [Hn [Hval [Hthis Hvars]]]] Hx. repeat split; try assumption.
    intros y t Hy Hg. destruct (Hvars y t Hy Hg) as [v [w0 [Hc [Hgl Hr]]]]. exists v, w0. split; [exact Hc|]. split; [|exact Hr].
    cbn [glookup]. destruct (bytes_eqb x y) eqn:E; [apply bytes_eqb_eq in E; subst y; congruence|exact Hgl].
  Qed.

  Lemma env_ok_bind G cenv gvars x acc te v w a :
    env_ok G cenv gvars -> vrel te v w ->
    bytes_eqb x s_value = false -> bytes_eqb x s_this = false ->
    bytes_eqb acc s_value = false -> bytes_eqb acc s_this = false -> glookup (te_vars G) acc = None ->
    env_ok (bind_var G x te) ((x, CV v) :: (acc, a) :: cenv) ((x, w) :: gvars).
  Proof.
    intros [Hf [Hn [Hval [Hthis Hvars]]]] Hvw Hxv Hxt Hav Hat Hacc.
    unfold env_ok, bind_var. cbn [te_fields te_fname te_vars]. repeat split; try assumption.
    - cbn [clookup]. rewrite Hxv, Hav. exact Hval.
    - intro H. apply orb_false_iff in H as [_ H]. cbn [clookup]. rewrite Hxt, Hat. apply Hthis. exact H.
    - intros y t Hy Hg. cbn [glookup] in Hg. cbn [clookup glookup]. destruct (bytes_eqb x y) eqn:Exy.
      + inversion Hg; subst t. eauto.
      + destruct (bytes_eqb acc y) eqn:Eay.
        * apply bytes_eqb_eq in Eay. congruence.
        * apply Hvars; assumption.
  Qed.

  Lemma sound_ident G cenv vars x : env_ok G cenv vars -> sound_at G cenv vars (EIdent x).
  Proof.
    intros [Hf [Hn [Hval [_ Hvars]]]] t g Hty Htr. cbn [cty] in Hty. injection Htr as <-. cbn [ceval].
    destruct (bytes_eqb x s_value) eqn:Ev.
    - apply bytes_eqb_eq in Ev. subst x. rewrite Hn in Hty. destruct (field_R G fname t Hf Hty) as [v [Hv Hr]].
      rewrite Hval, Hv, (go_field vars _ _ Hv). exact (R_intro _ _ _ Hr).
    - destruct (bytes_eqb x s_this); [discriminate Hty|].
      destruct (Hvars x t Ev Hty) as [v [w [Hc [Hg Hr]]]]. rewrite Hc. cbn [geval]. rewrite Hg. exact (R_intro _ _ _ Hr).
  Qed.

  Lemma sound_select G cenv vars e f test_only : env_ok G cenv vars -> sound_at G cenv vars (ESelect e f test_only).
  Proof.
    intros [Hf [_ [_ [Hthis _]]]] t g Hty Htr. cbn [cty] in Hty.
    destruct e as [x| | | | | | | | | | |]; try discriminate Hty. destruct test_only; [discriminate Hty|].
    destruct (bytes_eqb x s_this) eqn:Et; [|discriminate Hty]. apply bytes_eqb_eq in Et. subst x.
    destruct (existsb (fun v => bytes_eqb (fst v) s_this) (te_vars G)) eqn:Esh; [discriminate Hty|].
    cbn [tr] in Htr. injection Htr as <-.
    destruct (field_R G f t Hf Hty) as [v [Hv Hr]].
    cbn [ceval]. rewrite (Hthis eq_refl). cbn [on1 cselect this_map]. rewrite this_find, Hv, (go_field vars _ _ Hv). exact (R_intro _ _ _ Hr).
  Qed.

  Lemma const_R G cenv vars k t : cty G (EConst k) = Some t -> R t (CE cenv (EConst k)) (GE vars (tr_const k)).
  Proof.
    change (cty G (EConst k)) with (const_sty k). destruct k; cbn [const_sty]; intro H; try discriminate.
    - injection H as <-. apply R_intro. exists b. split; reflexivity.
    - apply if_some in H as [_ <-]. apply R_intro. split; reflexivity.
    - apply if_some in H as [_ <-]. apply R_intro. split; reflexivity.
    - apply if_some in H as [E <-].
      cbn [tr_const ceval const_val]. unfold dbl_lit_ok in E. unfold dbl_lit in *.
      destruct (dbl_int bits) as [z|]; [destruct (Z.abs z <? 1000000)|]; apply R_intro; cbn [vrel]; auto.
      split; [reflexivity|]. right. exists z. split; [reflexivity|lia].
    - injection H as <-. apply R_intro. split; reflexivity.
  Qed.

  (* int(s), double(s), duration(s): where the parse fails the emitted closure yields the zero value and cel-go an
     error, so nothing is claimed *)
  Lemma parse_R t (cv : Z -> cval) (gv : Z -> gval) (o : option Z) :
    (forall z, o = Some z \/ z = 0 -> vrel t (cv z) (gv z)) ->
    R t (Some (match o with Some z => CV (cv z) | None => CErr end)) (GV (gv (match o with Some z => z | None => 0 end))).
  Proof. intro H. destruct o as [z|]; [|apply (R_err _ (Some (CV (cv 0))))]; apply R_intro, H; auto. Qed.

  Lemma sound_call1 G cenv vars fn a : sound_at G cenv vars a -> sound_at G cenv vars (ECall1 fn a).
  Proof.
    intros IHa t g Hty Htr. cbn [cty] in Hty. cbn [tr] in Htr.
    destruct (cty G a) as [ta|] eqn:Hta; [|destruct fn; discriminate Hty]. destruct (TR a) as [ga|] eqn:Hga; [|destruct fn; discriminate Htr].
    specialize (IHa ta ga Hta Hga).
    (* the seven symbols that are typed and translated: each is strict, so it remains to relate the results on
       related values [v], [w] of the operand *)
    destruct fn; try discriminate Hty; injection Htr as <-;
      cbn [ceval geval]; rewrite ?paren_eval;
      (refine (R_strict1 ta t _ _ _ _ _ IHa _); [reflexivity|]); intros v w Hv ->; cbn [on1 gbind].
    - (* FNot *)
      destruct ta; try discriminate Hty. injection Hty as <-. destruct Hv as [b [-> ->]]. apply R_intro. cbn. eauto.
    - (* FNeg: Go wraps around where cel-go reports an overflow *)
      destruct ta; try discriminate Hty.
      + apply if_some in Hty as [Ek <-]. apply andb_true_iff in Ek as [H6 Hsg].
        destruct Hv as [z [-> [-> _]]]. rewrite (cint_signed k) by auto using is64_not_dur. cbn [cneg]. unfold chk_i.
        apply (R_val _ _ _ (cint k (wrap k (- z))) _ eq_refl (vrel_int_intro _ _ (wrap_in_kind _ _))).
        destruct (in_i64 (- z)) eqn:E; [right | left; reflexivity].
        rewrite (wrap_checked k), (cint_signed k) by (unfold unsigned_k; rewrite ?Hsg; auto using is64_not_dur). reflexivity.
      + injection Hty as <-. destruct Hv as [b [-> ->]]. apply R_intro. cbn. eauto.
      + destruct unsigned; try discriminate Hty. apply if_some in Hty as [E <-].
        destruct Hv as [-> ->]. cbn [cneg]. unfold chk_i. rewrite E. apply R_intro. cbn. auto.
    - (* FSize *)
      destruct ta; try discriminate Hty; injection Hty as <-; destruct Hv as [vs [ws [-> [-> [Hall Hlen]]]]]; cbn [CelSem.csize glen];
        [rewrite (F2_length _ _ _ Hall) | rewrite Hall ..]; exact (R_intro _ _ _ (vrel_int_intro IInt _ Hlen)).
    - (* FInt *)
      apply if_some in Hty as [Es <-]. destruct (strlike_vrel _ _ _ Es Hv) as [s [-> ->]].
      apply (parse_R (SInt IInt) VInt (GInt IInt)).
      intros z Hz. exists z. repeat split. destruct Hz as [Hz | ->]; [exact (parse_int_range _ _ Hz) | reflexivity].
    - (* FString *)
      destruct ta; try discriminate Hty.
      + apply if_some in Hty as [Ed <-]. destruct Hv as [z [-> [-> _]]].
        replace (gsprint fmt_g (GInt k z)) with (GV (GStr (fmt_int z))) by (destruct k; try discriminate Ed; reflexivity).
        destruct (cint_cases k z Ed) as [-> | ->]; apply R_intro; cbn; eauto.
      + injection Hty as <-. destruct Hv as [b [-> ->]]. apply R_intro. cbn. eauto.
      + injection Hty as <-. destruct Hv as [s [-> ->]]. apply R_intro. cbn. eauto.
      + injection Hty as <-. destruct Hv as [-> ->]. apply R_intro. cbn. eauto.
    - (* FDouble *)
      apply if_some in Hty as [Es <-]. destruct (strlike_vrel _ _ _ Es Hv) as [s [-> ->]].
      apply (parse_R SF64 VDouble GF64). intros z _. cbn. eauto.
    - (* FDuration *)
      apply if_some in Hty as [Es <-]. destruct (strlike_vrel _ _ _ Es Hv) as [s [-> ->]].
      apply (parse_R (SInt IDur) VDur (GInt IDur)).
      intros z Hz. exists z. repeat split. destruct Hz as [Hz | ->]; [exact (parse_dur_range _ _ Hz) | reflexivity].
  Qed.

  Lemma cmp_eval cenv fn op a b : cmp_fn fn = Some op ->
    CE cenv (ECall2 fn a b) = match CE cenv a, CE cenv b with Some x, Some y => Some (ccmp op x y) | _, _ => None end.
  Proof. destruct fn; try discriminate 1; intro H; injection H as <-; reflexivity. Qed.
  Lemma arith_eval cenv fn o a b : arith_fn fn = Some o ->
    CE cenv (ECall2 fn a b) = match CE cenv a, CE cenv b with Some x, Some y => Some (lift2 (carith o) x y) | _, _ => None end.
  Proof. destruct fn; try discriminate 1; intro H; injection H as <-; reflexivity. Qed.

  Lemma gbin_R ta tb t (F : cres -> cres -> cres) op cenv vars a b la rb :
    (forall y, F CErr y = CErr) -> (forall x, F x CErr = CErr) -> op <> BAnd -> op <> BOr ->
    R ta (CE cenv a) (GE vars la) -> R tb (CE cenv b) (GE vars rb) ->
    (forall va wa vb wb, vrel ta va wa -> vrel tb vb wb ->
       exists v0 w, gbinop op wa wb = GV w /\ vrel t v0 w /\ (F (CV va) (CV vb) = CErr \/ F (CV va) (CV vb) = CV v0)) ->
    R t (match CE cenv a, CE cenv b with Some x, Some y => Some (F x y) | _, _ => None end) (GE vars (GBin op la rb)).
  Proof.
    intros Hl Hr H1 H2 Ra Rb H. apply (R_strict2 ta tb t F _ _ _ _ _ Hl Hr Ra Rb).
    intros va wa vb wb Hva Hvb Hga Hgb. destruct (H va wa vb wb Hva Hvb) as [v0 [w [Hg [Hv Hc]]]].
    apply (R_val t _ _ v0 w); [|exact Hv|exact Hc]. rewrite <- Hg. apply gbin_values; assumption.
  Qed.

  Lemma cmp_case cenv vars fn op a b ta tb la rb :
    cmp_fn fn = Some op -> cmp_ok op ta tb = true ->
    R ta (CE cenv a) (GE vars la) -> R tb (CE cenv b) (GE vars rb) ->
    R SBool (CE cenv (ECall2 fn a b)) (GE vars (GBin (gop_of op) la rb)).
  Proof.
    intros Hfn Hok Ra Rb. rewrite (cmp_eval cenv fn op a b Hfn).
    apply (gbin_R ta tb SBool (ccmp op)); try assumption; [reflexivity | apply ccmp_err_r | destruct op; discriminate ..|].
    intros va wa vb wb Hva Hvb. destruct (cmp_sound op ta tb va vb wa wb Hok Hva Hvb) as [r [Hr Hc]].
    exists (VBool r), (GBool r). cbn. eauto.
  Qed.

  Lemma arith_case cenv vars fn o a b ta tb t la rb :
    arith_fn fn = Some o -> arith_ty o ta tb = Some t ->
    R ta (CE cenv a) (GE vars la) -> R tb (CE cenv b) (GE vars rb) ->
    R t (CE cenv (ECall2 fn a b)) (GE vars (GBin (garith o) la rb)).
  Proof.
    intros Hfn Hty Ra Rb. rewrite (arith_eval cenv fn o a b Hfn).
    apply (gbin_R ta tb t (lift2 (carith o))); try assumption; [reflexivity | apply lift2_err_r | destruct o; discriminate ..|].
    intros va wa vb wb. exact (arith_sound o ta tb t va vb wa wb Hty).
  Qed.

  Lemma cmp_cty_tr G fn op a b : cmp_fn fn = Some op ->
    cty G (ECall2 fn a b) = match cty G a, cty G b with
                            | Some ta, Some tb => if cmp_ok op ta tb then Some SBool else None
                            | _, _ => None
                            end /\
    TR (ECall2 fn a b) = obind (TR a) (fun l => omap (fun r => GBin (gop_of op) (operand_of fn a false l) (operand_of fn b true r)) (TR b)).
  Proof. destruct fn; try discriminate 1; intro H; injection H as <-; split; reflexivity. Qed.
  Lemma arith_cty_tr G fn o a b : arith_fn fn = Some o ->
    cty G (ECall2 fn a b) = match cty G a, cty G b with Some ta, Some tb => arith_ty o ta tb | _, _ => None end /\
    TR (ECall2 fn a b) = obind (TR a) (fun l => omap (fun r => GBin (garith o) (operand_of fn a false l) (operand_of fn b true r)) (TR b)).
  Proof. destruct fn; try discriminate 1; intro H; injection H as <-; split; reflexivity. Qed.

  Lemma binop_case G cenv vars fn a b :
    (cmp_fn fn <> None \/ arith_fn fn <> None) ->
    sound_at G cenv vars a -> sound_at G cenv vars b -> sound_at G cenv vars (ECall2 fn a b).
  Proof.
    intros Hfn IHa IHb t g Hty Htr.
    assert (Hops : forall op ta tb, cty G a = Some ta -> cty G b = Some tb ->
              TR (ECall2 fn a b) = obind (TR a) (fun l => omap (fun r => GBin op (operand_of fn a false l) (operand_of fn b true r)) (TR b)) ->
              exists la rb, g = GBin op la rb /\ R ta (CE cenv a) (GE vars la) /\ R tb (CE cenv b) (GE vars rb)).
    { intros op ta tb Ha Hb E. rewrite E in Htr. apply obind_inv in Htr as [la [Hla Htr]]. apply omap_inv in Htr as [rb [Hrb ->]].
      eexists _, _. split; [reflexivity|]. split; apply (operand_R G); auto. }
    destruct (cmp_fn fn) as [op|] eqn:Ec; [|destruct (arith_fn fn) as [o|] eqn:Eo].
    - destruct (cmp_cty_tr G fn op a b Ec) as [Ety Etr]. rewrite Ety in Hty.
      destruct (cty G a) as [ta|] eqn:Ha; [|discriminate Hty]. destruct (cty G b) as [tb|] eqn:Hb; [|discriminate Hty].
      apply if_some in Hty as [Hok <-].
      destruct (Hops _ ta tb eq_refl eq_refl Etr) as [la [rb [-> [Ra Rb]]]]. exact (cmp_case cenv vars fn op a b ta tb la rb Ec Hok Ra Rb).
    - destruct (arith_cty_tr G fn o a b Eo) as [Ety Etr]. rewrite Ety in Hty.
      destruct (cty G a) as [ta|] eqn:Ha; [|discriminate Hty]. destruct (cty G b) as [tb|] eqn:Hb; [|discriminate Hty].
      destruct (Hops _ ta tb eq_refl eq_refl Etr) as [la [rb [-> [Ra Rb]]]]. exact (arith_case cenv vars fn o a b ta tb t la rb Eo Hty Ra Rb).
    - destruct Hfn as [H|H]; destruct (H eq_refl).
  Qed.

  Lemma logic_case cenv vars (is_and : bool) a b la rb :
    R SBool (CE cenv a) (GE vars la) -> R SBool (CE cenv b) (GE vars rb) ->
    R SBool (CE cenv (ECall2 (if is_and then FAnd else FOr) a b)) (GE vars (GBin (if is_and then BAnd else BOr) (paren la) (paren rb))).
  Proof.
    intros Ha Hb. destruct (R_bool _ _ Ha) as [x [Hga Hca]], (R_bool _ _ Hb) as [y [Hgb Hcb]].
    destruct is_and; cbn [geval ceval]; rewrite !paren_eval, Hga, Hgb.
    all: destruct Hca as [-> | ->], Hcb as [-> | ->]; destruct x, y; apply R_bool_intro; auto.
  Qed.

  Lemma sound_logic G cenv vars (is_and : bool) a b :
    sound_at G cenv vars a -> sound_at G cenv vars b -> sound_at G cenv vars (ECall2 (if is_and then FAnd else FOr) a b).
  Proof.
    intros IHa IHb t g Hty Htr.
    assert (Ht : cty G a = Some SBool /\ cty G b = Some SBool /\ t = SBool).
    { destruct is_and; cbn [cty] in Hty; apply sbool_inv in Hty as [Ha Hty]; apply sbool_inv in Hty as [Hb Hty]; injection Hty as <-; auto. }
    destruct Ht as [Ha [Hb ->]].
    assert (Hg : exists la rb, TR a = Some la /\ TR b = Some rb /\ g = GBin (if is_and then BAnd else BOr) (paren la) (paren rb)).
    { destruct is_and; cbn [tr] in Htr; apply obind_inv in Htr as [la [Hla Htr]]; apply omap_inv in Htr as [rb [Hrb ->]]; eauto. }
    destruct Hg as [la [rb [Hla [Hrb ->]]]]. apply logic_case; auto.
  Qed.

  Lemma str2_R ts tp fn oa ob ga gb gr :
    is_strlike ts = true -> is_strlike tp = true -> R ts oa ga -> R tp ob gb ->
    (forall x y, ga = GV (GStr x) -> gb = GV (GStr y) -> R SBool (Some (cstrfn re_match fn (VString x) (VString y))) gr) ->
    R SBool (match oa, ob with Some a, Some b => Some (lift2 (cstrfn re_match fn) a b) | _, _ => None end) gr.
  Proof.
    intros Hs Hp Ra Rb H. apply (R_strict2 ts tp SBool (lift2 (cstrfn re_match fn)) _ _ _ _ _ (fun _ => eq_refl) (lift2_err_r _) Ra Rb).
    intros va wa vb wb Hva Hvb -> ->.
    destruct (strlike_vrel _ _ _ Hs Hva) as [x [-> ->]], (strlike_vrel _ _ _ Hp Hvb) as [y [-> ->]]. exact (H x y eq_refl eq_refl).
  Qed.

  Lemma strfn_case cenv vars f s p gs gp ts tp :
    is_strlike ts = true -> is_strlike tp = true ->
    R ts (CE cenv s) (GE vars gs) -> R tp (CE cenv p) (GE vars gp) ->
    R SBool (CE cenv (EMeth1 (match f with SContains => FContains | SHasPrefix => FStartsWith | SHasSuffix => FEndsWith end) s p))
            (GE vars (GStrFn f gs gp)).
  Proof.
    intros Hs Hp Ra Rb.
    destruct f; (apply (str2_R ts tp _ _ _ _ _ _ Hs Hp Ra Rb); intros x y Hx Hy; cbn [geval]; rewrite Hx, Hy; apply R_intro; cbn; eauto).
  Qed.

  Lemma matches_case cenv vars s p gs ts :
    re_ok p = true -> is_strlike ts = true ->
    R ts (CE cenv s) (GE vars gs) ->
    R SBool (CE cenv (ECall2 FMatches s (EConst (KString p)))) (GE vars (GMatch (GLitStr p) gs)).
  Proof.
    intros Hp Hs Ra.
    assert (Rp : R (SKStr p) (CE cenv (EConst (KString p))) (GE vars (GLitStr p))) by (apply R_intro; cbn; auto).
    apply (str2_R ts (SKStr p) _ _ _ _ _ _ Hs eq_refl Ra Rp). intros x y Hx Hy. injection Hy as <-.
    cbn [geval cstrfn]. rewrite Hx. pose proof (re_ok_total p Hp x) as Hm.
    destruct (re_match p x); [apply R_intro; cbn; eauto | congruence].
  Qed.

  (* the typing of matches(s, p): s is string-like, p a string constant or a string-like expression that is no constant *)
  Lemma matches_pattern_inv G s p t : cty G (ECall2 FMatches s p) = Some t ->
    exists ts, cty G s = Some ts /\ t = SBool /\ is_strlike ts = true /\
    ((exists pat, p = EConst (KString pat)) \/
     ((forall k, p <> EConst k) /\ exists tp, cty G p = Some tp /\ is_strlike tp = true)).
  Proof.
    intro H. cbn [cty] in H. destruct (cty G s) as [ts|]; [|discriminate H]. exists ts. split; [reflexivity|].
    assert (Hp : (exists k, p = EConst k) \/
                 ((forall k, p <> EConst k) /\
                  match cty G p with Some tp => if is_strlike ts && is_strlike tp then Some SBool else None | None => None end = Some t)).
    { destruct p; try (right; split; [intros k0 X; discriminate X | exact H]). left. eauto. }
    destruct Hp as [[k ->] | [Hn H']].
    - destruct k; try discriminate H. apply if_some in H as [Ea <-]. eauto.
    - destruct (cty G p) as [tp|]; [|discriminate H']. apply if_some in H' as [E' <-]. apply andb_true_iff in E' as [Ea Et]. eauto 8.
  Qed.

  (* a pattern that is not a constant: compiled at run time inside a guarded closure; when it is invalid the
     closure yields false and cel-go yields an error, so nothing is claimed *)
  Lemma matches_safe_case cenv vars s p gs gp ts tp :
    is_strlike ts = true -> is_strlike tp = true ->
    R ts (CE cenv s) (GE vars gs) -> R tp (CE cenv p) (GE vars gp) ->
    R SBool (CE cenv (ECall2 FMatches s p)) (GE vars (GMatchSafe gp gs)).
  Proof.
    intros Hs Hp Ra Rb.
    apply (str2_R ts tp _ _ _ _ _ _ Hs Hp Ra Rb). intros x y Hx Hy. cbn [geval cstrfn]. rewrite Hx, Hy.
    destruct (re_match y x); [apply R_intro; cbn; eauto | apply (R_err _ (Some (CV (VBool false)))), R_intro; cbn; eauto].
  Qed.

  Lemma sound_matches G cenv vars s p : sound_at G cenv vars s -> sound_at G cenv vars p -> sound_at G cenv vars (ECall2 FMatches s p).
  Proof.
    intros IHs IHp t g Hty Htr. cbn [tr] in Htr. apply obind_inv in Htr as [gs [Hgs Htr]]. apply obind_inv in Htr as [gp [Hgp Htr]].
    apply if_some in Htr as [Hok <-].
    destruct (matches_pattern_inv G s p t Hty) as (ts & Hs & -> & Es & [[pat ->] | [Hnc (tp & Hp & Et)]]).
    - injection Hgp as <-. exact (matches_case cenv vars s pat gs ts Hok Es (IHs _ _ Hs Hgs)).
    - replace (match_node p gp gs) with (GMatchSafe gp gs) by (destruct p; try reflexivity; destruct (Hnc _ eq_refl)).
      exact (matches_safe_case cenv vars s p gs gp ts tp Es Et (IHs _ _ Hs Hgs) (IHp _ _ Hp Hgp)).
  Qed.

  Lemma sound_meth1 G cenv vars fn s p : sound_at G cenv vars s -> sound_at G cenv vars p -> sound_at G cenv vars (EMeth1 fn s p).
  Proof.
    intros IHs IHp t g Hty Htr. cbn [cty] in Hty.
    (* s.matches(p) is typed, translated and evaluated as matches(s, p) *)
    (* contains, startsWith, endsWith: two string-like operands, one node GStrFn *)
    destruct fn; try discriminate Hty; [|exact (sound_matches G cenv vars s p IHs IHp t g Hty Htr)|..];
      (destruct (cty G s) as [ts|] eqn:Hs; [|discriminate Hty]; destruct (cty G p) as [tp|] eqn:Hp; [|discriminate Hty];
       apply if_some in Hty as [E <-]; apply andb_true_iff in E as [Es Ep];
       cbn [tr] in Htr; apply obind_inv in Htr as [gs [Hgs Htr]]; apply omap_inv in Htr as [gp [Hgp ->]];
       apply strfn_case with (ts := ts) (tp := tp); [exact Es | exact Ep | auto ..]).
  Qed.

  (* the loops inside the closures emitted for the macros (the inner loops of GoSem.geval), as functions of the loop body *)
  Definition go_all (body : gval -> gres) : list gval -> gres :=
    fix go (els : list gval) : gres :=
      match els with
      | [] => GV (GBool true)
      | v :: rest => match body v with
                     | GV (GBool true) => go rest
                     | GV (GBool false) => match go rest with GStuck => GStuck | _ => GV (GBool false) end
                     | GPanic => GPanic
                     | _ => GStuck
                     end
      end.
  Definition go_exists (body : gval -> gres) : list gval -> gres :=
    fix go (els : list gval) : gres :=
      match els with
      | [] => GV (GBool false)
      | v :: rest => match body v with
                     | GV (GBool false) => go rest
                     | GV (GBool true) => match go rest with GStuck => GStuck | _ => GV (GBool true) end
                     | GPanic => GPanic
                     | _ => GStuck
                     end
      end.
  Definition go_exists_one (body : gval -> gres) : list gval -> Z -> gres :=
    fix go (els : list gval) (count : Z) : gres :=
      match els with
      | [] => GV (GBool (count =? 1))
      | v :: rest => match body v with
                     | GV (GBool false) => go rest count
                     | GV (GBool true) => go rest (count + 1)
                     | GPanic => GPanic
                     | _ => GStuck
                     end
      end.
  Definition go_filter (body : gval -> gres) : list gval -> list gval -> gres :=
    fix go (els : list gval) (acc : list gval) : gres :=
      match els with
      | [] => GV (GIface (rev acc))
      | v :: rest => match body v with
                     | GV (GBool false) => go rest acc
                     | GV (GBool true) => go rest (match v with GBoxed w => w | w => w end :: acc)
                     | GPanic => GPanic
                     | _ => GStuck
                     end
      end.
  Definition go_map (body : gval -> gres) : list gval -> list gval -> gres :=
    fix go (els : list gval) (acc : list gval) : gres :=
      match els with
      | [] => GV (GIface (rev acc))
      | v :: rest => match body v with
                     | GV w => match default_type w with
                               | GNilV => GStuck
                               | w' => go rest (match w' with GBoxed u => u | u => u end :: acc)
                               end
                     | o => o
                     end
      end.

  Lemma gall_eval vars x gr gb ws : GE vars gr = GV (GSlice ws) ->
    GE vars (GAll x gr gb) = go_all (fun v => GE ((x, v) :: vars) gb) ws.
  Proof. intro H. cbn [geval]. rewrite H. reflexivity. Qed.
  Lemma gexists_eval vars x gr gb ws : GE vars gr = GV (GSlice ws) ->
    GE vars (GExists x gr gb) = go_exists (fun v => GE ((x, v) :: vars) gb) ws.
  Proof. intro H. cbn [geval]. rewrite H. reflexivity. Qed.
  Lemma gexists_one_eval vars x gr gb ws : GE vars gr = GV (GSlice ws) ->
    GE vars (GExistsOne x gr gb) = go_exists_one (fun v => GE ((x, v) :: vars) gb) ws 0.
  Proof. intro H. cbn [geval]. rewrite H. reflexivity. Qed.
  Lemma gfilter_eval vars x gr gb ws : GE vars gr = GV (GSlice ws) ->
    GE vars (GFilter x gr gb) = go_filter (fun v => GE ((x, v) :: vars) gb) ws [].
  Proof. intro H. cbn [geval]. rewrite H. reflexivity. Qed.
  Lemma gmap_eval vars x gr gb ws : GE vars gr = GV (GSlice ws) ->
    GE vars (GMapC x gr gb) = go_map (fun v => GE ((x, v) :: vars) gb) ws [].
  Proof. intro H. cbn [geval]. rewrite H. reflexivity. Qed.

  (* slices.Contains *)
  Definition contains_loop (v : gval) : list gval -> gres :=
    fix go (els : list gval) : gres :=
      match els with
      | [] => GV (GBool false)
      | y :: r => match gbinop BEq y v with
                  | GV (GBool true) => match go r with GStuck => GStuck | _ => GV (GBool true) end
                  | GV (GBool false) => go r
                  | _ => GStuck
                  end
      end.

  Lemma slices_contains_eval vars l x els v : GE vars l = GV (GSlice els) -> GE vars x = GV v ->
    GE vars (GSlicesContains l x) = contains_loop v els.
  Proof. intros Hl Hx. cbn [geval]. rewrite Hl, Hx. reflexivity. Qed.

  (* every test of the loop yields a boolean; if [P] holds (the element looked for has a value) it is the boolean [p] gives *)
  Lemma go_exists_tests (f : gval -> gres) (p : cval -> bool) (P : Prop) vs ws :
    Forall2 (fun v w => exists b, f w = GV (GBool b) /\ (P -> b = p v)) vs ws ->
    exists r, go_exists f ws = GV (GBool r) /\ (P -> r = existsb p vs).
  Proof.
    induction 1 as [|v w vs ws [b [Hb Hp]] _ [r [IH Hr]]]; [exists false; auto|]. cbn [go_exists existsb]. rewrite Hb, IH.
    exists (b || r). split; [destruct b; reflexivity|]. intro H. rewrite (Hp H), (Hr H). reflexivity.
  Qed.

  Lemma iface_list_not_slice vars es ws : GE vars (GIfaceList es) = GV (GSlice ws) -> False.
  Proof.
    cbn [geval]. generalize (@nil gval). induction es as [|x es IH]; intros acc H; [discriminate H|].
    destruct (GE vars x) as [v| |]; try discriminate H. destruct (default_type v); try discriminate H; apply (IH _ H).
  Qed.

  Lemma slice_not_iface_list vars coll ws : GE vars coll = GV (GSlice ws) -> match coll with GIfaceList _ => False | _ => True end.
  Proof. destruct coll; try exact (fun _ => I). apply iface_list_not_slice. Qed.

  Lemma in_eval cenv a b :
    CE cenv (ECall2 FIn a b) = match CE cenv a, CE cenv b with Some x, Some y => Some (lift2 cin x y) | _, _ => None end.
  Proof. reflexivity. Qed.
  Lemma tr_in_eq a b : TR (ECall2 FIn a b) = obind (TR a) (fun el => obind (TR b) (fun coll => tr_in b el coll)).
  Proof. reflexivity. Qed.

  Lemma eq_sound ta tb va vb wa wb : cmp_ok OpEq ta tb = true -> vrel ta va wa -> vrel tb vb wb ->
    gbinop BEq wa wb = GV (GBool (cequal va vb)).
  Proof.
    intros Hok Ha Hb. destruct (cmp_sound OpEq ta tb va vb wa wb Hok Ha Hb) as [b [Hg Hc]].
    rewrite ccmp_eq_total in Hc. cbn [gop_of] in Hg. destruct Hc as [Hc | Hc]; congruence.
  Qed.

  (* The loops compare the ELEMENT with el, cel-go el with the element; on the values that can occur cel-go's
     equality is symmetric. *)
  Definition scalar (v : cval) : Prop := match v with VInt _ | VUint _ | VDur _ | VString _ => True | _ => False end.

  Lemma cequal_sym_scalar a b : scalar a -> scalar b -> cequal a b = cequal b a.
  Proof.
    destruct a, b; try contradiction; intros _ _; cbn [cequal num_cmp];
      try reflexivity; try (rewrite (Z.compare_antisym z z0); destruct (z ?= z0); reflexivity).
    - apply bytes_eqb_sym.
    - apply Z.eqb_sym.
  Qed.

  Lemma in_elem_cmp_ok ta tb : in_elem_ok ta tb = true -> cmp_ok OpEq tb ta = true.
  Proof.
    destruct ta, tb; try discriminate; try reflexivity; intro H.
    - apply ikind_eqb_eq in H. subst. apply ikind_eqb_refl.
    - exact H.
  Qed.

  Lemma in_elem_scalar ta tb va wa v w : in_elem_ok ta tb = true -> vrel ta va wa -> vrel tb v w -> scalar va /\ scalar v.
  Proof.
    assert (S : forall t v w, vrel t v w -> match t with SInt _ | SStr | SKStr _ | SKInt _ _ => scalar v | _ => True end).
    { intros [] v0 w0 H; try exact I.
      - destruct H as [z [-> _]]. destruct k; exact I.
      - destruct H as [s [-> _]]. exact I.
      - destruct H as [-> _]. destruct unsigned; exact I.
      - destruct H as [-> _]. exact I. }
    intros Hok Ha Hb. pose proof (S _ _ _ Ha) as Sa. pose proof (S _ _ _ Hb) as Sb.
    destruct ta, tb; try discriminate Hok; auto.
  Qed.

  Lemma member_test ta tb va wa v w :
    in_elem_ok ta tb = true -> vrel ta va wa -> vrel tb v w -> gbinop BEq w wa = GV (GBool (cequal va v)).
  Proof.
    intros Hok Ha Hvw. destruct (in_elem_scalar _ _ _ _ _ _ Hok Ha Hvw) as [Sa Sv].
    rewrite (cequal_sym_scalar va v Sa Sv). exact (eq_sound tb ta v va w wa (in_elem_cmp_ok _ _ Hok) Hvw Ha).
  Qed.

  Lemma contains_tests ta tb va wa vs ws :
    in_elem_ok ta tb = true -> vrel ta va wa -> Forall2 (vrel tb) vs ws ->
    contains_loop wa ws = GV (GBool (existsb (cequal va) vs)).
  Proof.
    intros Hok Ha. induction 1 as [|v w vs ws Hvw _ IH]; [reflexivity|]. cbn [contains_loop existsb].
    rewrite (member_test ta tb va wa v w Hok Ha Hvw). destruct (cequal va v); [rewrite IH; reflexivity | exact IH].
  Qed.

  (* the elements of a literal list, read as constants *)
  Definition cv_of (c : cexpr) : cval := match c with EConst k => const_val k | _ => VNull end.
  Definition gc_of (c : cexpr) : gexpr := match c with EConst k => tr_const k | _ => GUnknown end.
  Definition str_of (c : cexpr) : bytes := match c with EConst (KString s) => s | _ => [] end.

  Lemma const_list_eval cenv (l : list cexpr) :
    forallb (fun c => match c with EConst _ => true | _ => false end) l = true ->
    CE cenv (EList l) = Some (CV (VList (map cv_of l))).
  Proof.
    intro H. cbn [ceval].
    match goal with |- ?go l [] false = _ =>
      enough (E : forall acc, go l acc false = Some (CV (VList (rev acc ++ map cv_of l)))) by exact (E [])
    end.
    induction l as [|x l IH]; intro acc.
    - rewrite app_nil_r. reflexivity.
    - apply andb_true_iff in H as [Hx Hl]. destruct x; try discriminate Hx.
      cbn [ceval]. rewrite (IH Hl). cbn [rev cv_of]. rewrite <- app_assoc. reflexivity.
  Qed.

  Lemma tr_const_list (l : list cexpr) :
    forallb (fun c => match c with EConst _ => true | _ => false end) l = true ->
    TR (EList l) = Some (GIfaceList (map gc_of l)).
  Proof.
    intro H. cbn [tr].
    match goal with |- omap _ (?go l) = _ => enough (E : go l = Some (map gc_of l)) by (rewrite E; reflexivity) end.
    induction l as [|x l IH]; [reflexivity|]. apply andb_true_iff in H as [Hx Hl].
    destruct x; try discriminate Hx. rewrite (IH Hl). reflexivity.
  Qed.

  Lemma str_list_eval vars (l : list cexpr) :
    forallb (fun c => match c with EConst (KString _) => true | _ => false end) l = true ->
    GE vars (GStrList (map gc_of l)) = GV (GSlice (map GStr (map str_of l))).
  Proof.
    intro H. cbn [geval].
    match goal with |- ?go (map gc_of l) [] = _ =>
      enough (E : forall acc, go (map gc_of l) acc = GV (GSlice (rev acc ++ map GStr (map str_of l)))) by exact (E [])
    end.
    induction l as [|x l IH]; intro acc; cbn [map].
    - rewrite app_nil_r. reflexivity.
    - apply andb_true_iff in H as [Hx Hl]. destruct x; try discriminate Hx. destruct k; try discriminate Hx.
      cbn [gc_of tr_const geval str_of]. rewrite (IH Hl). cbn [rev]. rewrite <- app_assoc. reflexivity.
  Qed.

  Lemma str_lits (l : list cexpr) :
    forallb (fun c => match c with EConst (KString _) => true | _ => false end) l = true ->
    forallb (fun c => match c with EConst _ => true | _ => false end) l = true /\
    Forall2 (vrel SStr) (map cv_of l) (map GStr (map str_of l)).
  Proof.
    induction l as [|x l IH]; [split; [reflexivity | constructor]|]. intro H.
    apply andb_true_iff in H as [Hx Hl]. destruct (IH Hl) as [C F].
    destruct x; try discriminate Hx. destruct k; try discriminate Hx. split; [exact C|]. constructor; [cbn; eauto | exact F].
  Qed.

  Lemma has_quote_strs (l : list cexpr) x :
    forallb (fun c => match c with EConst (KString _) => true | _ => false end) (x :: l) = true ->
    existsb has_quote (map gc_of (x :: l)) = true.
  Proof. destruct x; try discriminate. destruct k; try discriminate. reflexivity. Qed.

  Lemma no_quote_nums (l : list cexpr) :
    forallb is_numeric_const l = true -> existsb has_quote (map gc_of l) = false.
  Proof.
    induction l as [|x l IH]; [reflexivity|]. cbn [forallb map existsb]. intro H. apply andb_true_iff in H as [Hx Hl].
    rewrite (IH Hl), orb_false_r. destruct x; try discriminate. destruct k; try discriminate; cbn [gc_of tr_const]; try reflexivity.
    unfold dbl_lit. destruct (dbl_int bits); [destruct (Z.abs z <? 1000000)|]; reflexivity.
  Qed.

  Lemma lit_ok_forall G ta (l : list cexpr) :
    forallb (lit_ok_for ta) l = true ->
    Forall (fun c => exists k tc, c = EConst k /\ cty G c = Some tc /\ cmp_ok OpEq ta tc = true) l /\
    forallb is_numeric_const l = true /\ forallb (fun c => match c with EConst _ => true | _ => false end) l = true.
  Proof.
    induction l as [|x l IH]; [cbn; auto|]. cbn [forallb]. intro H. apply andb_true_iff in H as [Hx Hl].
    destruct (IH Hl) as [F [N C]]. destruct x; try discriminate.
    apply andb_true_iff in Hx as [Hn Hc]. destruct (const_sty k) as [tc|] eqn:Ek; [|discriminate].
    split; [constructor; [exists k, tc; auto|exact F]|]. split; [rewrite Hn; exact N | exact C].
  Qed.

  (* el == c *)
  Lemma lit_test G vars ta va wa el k tc :
    GE vars el = GV wa -> vrel ta va wa -> cty G (EConst k) = Some tc -> cmp_ok OpEq ta tc = true ->
    GE vars (GBin BEq el (tr_const k)) = GV (GBool (cequal va (const_val k))).
  Proof.
    intros Hel Hva Hty Hok. destruct (const_R G [] vars k tc Hty) as [v0 [w [Hg [Hv Hc]]]].
    assert (v0 = const_val k) by (cbn [ceval] in Hc; destruct Hc as [Hc|Hc]; congruence). subst v0.
    rewrite (gbin_values vars BEq el (tr_const k) wa w); auto; [exact (eq_sound ta tc _ _ _ _ Hok Hva Hv) | discriminate ..].
  Qed.

  (* el == c1 || el == c2 || ... *)
  Lemma in_chain G vars ta va wa el (cs : list cexpr) :
    GE vars el = GV wa -> vrel ta va wa ->
    Forall (fun c => exists k tc, c = EConst k /\ cty G c = Some tc /\ cmp_ok OpEq ta tc = true) cs ->
    forall init b0, GE vars init = GV (GBool b0) ->
    GE vars (fold_left (fun acc c => GBin BOr acc (GBin BEq el c)) (map gc_of cs) init)
      = GV (GBool (b0 || existsb (fun c => cequal va (cv_of c)) cs)).
  Proof.
    intros Hel Hva Hcs. induction Hcs as [|c cs [k [tc [-> [Hty Hok]]]] _ IH]; intros init b0 Hinit.
    - rewrite orb_false_r. exact Hinit.
    - cbn [map fold_left existsb gc_of cv_of]. rewrite orb_assoc. apply IH.
      change (GE vars (GBin BOr init (GBin BEq el (tr_const k)))) with (gor (GE vars init) (GE vars (GBin BEq el (tr_const k)))).
      rewrite Hinit, (lit_test G vars ta va wa el k tc Hel Hva Hty Hok). destruct b0; reflexivity.
  Qed.

  Lemma in_literal_case G cenv vars a el ta x r t g :
    cty G (ECall2 FIn a (EList (x :: r))) = Some t -> cty G a = Some ta ->
    TR a = Some el -> TR (ECall2 FIn a (EList (x :: r))) = Some g ->
    R ta (CE cenv a) (GE vars el) ->
    R t (CE cenv (ECall2 FIn a (EList (x :: r)))) (GE vars g).
  Proof.
    intros Hty Hta Hel Htr Ra. cbn [cty] in Hty. rewrite Hta in Hty. rewrite tr_in_eq, Hel in Htr. rewrite in_eval.
    destruct (is_strlike ta) eqn:Es.
    - (* strings: slices.Contains([]string{...}, el) *)
      apply if_some in Hty as [Hl <-]. destruct (str_lits _ Hl) as [Hc Fs].
      rewrite (tr_const_list _ Hc) in Htr. cbn [obind] in Htr. unfold tr_in in Htr. rewrite (has_quote_strs r x Hl) in Htr.
      injection Htr as <-. change (gc_of x :: map gc_of r) with (map gc_of (x :: r)). rewrite (const_list_eval cenv _ Hc).
      apply (R_strict1 ta SBool (fun ca => Some (lift2 cin ca (CV (VList (map cv_of (x :: r)))))) _ _ _ eq_refl Ra).
      intros va wa Hva Hge. rewrite (slices_contains_eval vars _ _ _ _ (str_list_eval vars _ Hl) Hge).
      assert (Hok : in_elem_ok ta SStr = true) by (unfold in_elem_ok; rewrite Es; reflexivity).
      rewrite (contains_tests ta SStr va wa _ _ Hok Hva Fs). apply R_intro. cbn. eauto.
    - (* numbers: (el == c1 || el == c2 || ...) *)
      assert (Hlit : forallb (lit_ok_for ta) (x :: r) = true /\ t = SBool)
        by (destruct ta; try discriminate Hty; apply if_some in Hty as [Hlit <-]; auto).
      destruct Hlit as [Hlit ->]. destruct (lit_ok_forall G ta _ Hlit) as [F [N Hc]].
      rewrite (tr_const_list _ Hc) in Htr. cbn [obind] in Htr. unfold tr_in in Htr. rewrite (no_quote_nums _ N), N in Htr. cbn [map] in Htr.
      injection Htr as <-. rewrite (const_list_eval cenv _ Hc), paren_eval.
      apply (R_strict1 ta SBool (fun ca => Some (lift2 cin ca (CV (VList (map cv_of (x :: r)))))) _ _ _ eq_refl Ra).
      intros va wa Hva Hge. inversion F as [|c cs [k [tc [-> [Hk Hok]]]] Fr]. cbn [gc_of].
      rewrite (in_chain G vars ta va wa el r Hge Hva Fr _ _ (lit_test G vars ta va wa el k tc Hge Hva Hk Hok)).
      apply R_intro. rewrite existsb_map. cbn. eauto.
  Qed.

  (* x in <list-valued expression> *)
  Lemma in_list_case G cenv vars a b ta tb el coll g :
    (match b with EList _ => False | _ => True end) ->
    in_elem_ok ta tb = true ->
    existsb (fun xv => item_like (fst xv)) (te_vars G) = false ->
    env_ok G cenv vars ->
    tr_in b el coll = Some g ->
    (forall vars', env_ok G cenv vars' -> R ta (CE cenv a) (GE vars' el)) ->
    R (SList tb) (CE cenv b) (GE vars coll) ->
    R SBool (CE cenv (ECall2 FIn a b)) (GE vars g).
  Proof.
    intros Hb Hok Hsc Henv Htr Ra Rb. rewrite in_eval.
    (* all that is needed of Rb here: the collection evaluates to a slice *)
    assert (Hgc : exists ws, GE vars coll = GV (GSlice ws)) by (destruct Rb as [_ [_ [-> [[_ [ws [_ [-> _]]]] _]]]]; eauto).
    destruct Hgc as [ws0 Hgc]. destruct (tr_in_nonlist b el coll Hb (slice_not_iface_list vars coll ws0 Hgc)) as [v [Hv Ev]].
    rewrite Ev in Htr. pose proof (not_in_scope G v Hsc Hv) as Hfree.
    destruct (starts_with_t coll && starts_quote el && ends_quote el); injection Htr as <-.
    - (* slices.Contains(coll, el) *)
      apply (R_strict2 ta (SList tb) SBool (lift2 cin) _ _ _ _ _ (fun _ => eq_refl) (lift2_err_r _) (Ra vars Henv) Rb).
      intros va wa vl wl Hva [vs [ws [-> [-> [F _]]]]] Hge Hgc'.
      rewrite (slices_contains_eval vars _ _ _ _ Hgc' Hge), (contains_tests ta tb va wa vs ws Hok Hva F).
      apply R_intro. cbn. eauto.
    - (* the generic loop evaluates el again at every turn, under one more Go variable: the induction hypothesis
         on a is used once per element, and tells the same CEL value each time unless a yields an error *)
      destruct Rb as [vl [wl [Hgc' [[vs [ws [-> [-> [F _]]]]] Hcl]]]]. rewrite (gexists_eval vars v coll _ ws Hgc').
      destruct (Ra vars Henv) as [va [_ [_ [_ Hca]]]].
      destruct (go_exists_tests (fun w => GE ((v, w) :: vars) (GBin BEq (GVar v) el)) (cequal va) (CE cenv a = Some (CV va)) vs ws)
        as [r [-> Hr]].
      { revert F. apply F2_impl. intros v0 w Hvw.
        destruct (Ra ((v, w) :: vars) (env_ok_extra G cenv vars v w Henv Hfree)) as [va' [wa [Hg [Hva Hca']]]].
        exists (cequal va' v0). split; [|intro E; destruct Hca'; congruence].
        rewrite (gbin_values ((v, w) :: vars) BEq (GVar v) el w wa); [exact (member_test ta tb va' wa v0 w Hok Hva Hvw)|discriminate|discriminate| |exact Hg].
        cbn [geval glookup]. rewrite bytes_eqb_refl. reflexivity. }
      apply R_bool_intro. destruct Hca as [E|E]; rewrite E; [rewrite (Hr E)|]; destruct Hcl as [-> | ->]; auto.
  Qed.

  Lemma sound_in G cenv vars a b :
    env_ok G cenv vars -> (forall vars', env_ok G cenv vars' -> sound_at G cenv vars' a) ->
    (match b with EList _ => False | _ => True end -> sound_at G cenv vars b) ->
    sound_at G cenv vars (ECall2 FIn a b).
  Proof.
    intros Henv IHa IHb t g Hty Htr.
    pose proof Htr as Htr'. rewrite tr_in_eq in Htr'. apply obind_inv in Htr' as [el [Hel Htr']]. apply obind_inv in Htr' as [coll [Hcoll Htr']].
    (* a literal list that is not empty has a typing rule of its own *)
    assert (Hb : exists ta, cty G a = Some ta /\
                 ((exists x r, b = EList (x :: r)) \/
                  (if mentions s_item a || existsb (fun xv => item_like (fst xv)) (te_vars G) then None
                   else match cty G b with Some (SList tb) => if in_elem_ok ta tb then Some SBool else None | _ => None end) = Some t)).
    { cbn [cty] in Hty. destruct (cty G a) as [ta|]; [|discriminate Hty]. exists ta. split; [reflexivity|].
      destruct b as [| | | | | | | |[|]| | |]; eauto. }
    destruct Hb as [ta [Hta [[x [r ->]] | E]]].
    - exact (in_literal_case G cenv vars a el ta x r t g Hty Hta Hel Htr (IHa vars Henv ta el Hta Hel)).
    - destruct (mentions s_item a || _) eqn:Eg; [discriminate E|].
      apply orb_false_iff in Eg as [_ Hsc].
      destruct (cty G b) as [[| | | | | | |tb| |]|] eqn:Hb'; try discriminate E.
      apply if_some in E as [Hok <-].
      assert (Hnl : match b with EList _ => False | _ => True end) by (destruct b; try exact I; discriminate Hb').
      apply (in_list_case G cenv vars a b ta tb el coll g Hnl Hok Hsc Henv Htr');
        [intros vars' He'; exact (IHa vars' He' ta el Hta Hel) | exact (IHb Hnl _ _ Hb' Hcoll)].
  Qed.

  (* cel-go's evalFold *)
  Definition cel_fold (cenv : cenv) (x acc : ident) (cond step : cexpr) : list cval -> cres -> option cres :=
    fix loop (els : list cval) (a : cres) : option cres :=
      match els with
      | [] => Some a
      | v :: rest =>
          let env' := (x, CV v) :: (acc, a) :: cenv in
          match CE env' cond with
          | None => None
          | Some (CV (VBool false)) => Some a
          | Some _ => match CE env' step with
                      | Some a' => loop rest a'
                      | None => None
                      end
          end
      end.

  Lemma compr_eval cenv x r acc init cond step res vs a0 :
    CE cenv r = Some (CV (VList vs)) -> CE cenv init = Some a0 ->
    CE cenv (ECompr x r acc init cond step res) =
    match cel_fold cenv x acc cond step vs a0 with
    | Some a => CE ((acc, a) :: cenv) res
    | None => None
    end.
  Proof. intros Hr Hi. cbn [ceval]. rewrite Hr. rewrite Hi. reflexivity. Qed.

  Lemma compr_err cenv x r acc init cond step res :
    CE cenv r = Some CErr -> CE cenv (ECompr x r acc init cond step res) = Some CErr.
  Proof. intro H. cbn [ceval]. rewrite H. reflexivity. Qed.

  Lemma compr_R cenv vars x r acc init cond step res gr te t a0 g :
    R (SList te) (CE cenv r) (GE vars gr) -> CE cenv init = Some a0 ->
    (forall vs ws, Forall2 (vrel te) vs ws -> in_i64 (Z.of_nat (length ws)) = true -> GE vars gr = GV (GSlice ws) ->
       exists aN, cel_fold cenv x acc cond step vs a0 = Some aN /\ R t (CE ((acc, aN) :: cenv) res) g) ->
    R t (CE cenv (ECompr x r acc init cond step res)) g.
  Proof.
    intros [v0 [w [Hg [[vs [ws [-> [-> [F L]]]]] Hc]]]] Hi H. destruct (H vs ws F L Hg) as [aN [Hf HR]].
    destruct Hc as [Hc | Hc].
    - rewrite (compr_eval cenv x r acc init cond step res vs a0 Hc Hi), Hf. exact HR.
    - rewrite (compr_err cenv x r acc init cond step res Hc). exact (R_err _ _ _ HR).
  Qed.

  Lemma acc_result cenv acc a : CE ((acc, a) :: cenv) (EIdent acc) = Some a.
  Proof. cbn [ceval clookup]. rewrite bytes_eqb_refl. reflexivity. Qed.

  (* all and exists are one loop, with && and || exchanged and the loop stopping on false / on true: [d] says which
     (true for exists; [a * c] below is [a || c] then, [a && c] otherwise). The accumulator is a boolean or an error.
     The invariant of the loop: from accumulator [a], if the Go loop returns [r] on the elements still to come, the
     fold ends in [aN = CErr \/ aN = a * r]. [quant_step] carries it back over one element, on which the body
     yields [c] in cel-go and [b] in Go: what holds from [a * c] for [r] holds from [a] for [b * r]. An error in
     the body is forgotten exactly when a later element decides the outcome. *)
  Definition boolish (a : cres) : Prop := a = CErr \/ exists b, a = CV (VBool b).

  Lemma quant_step (d : bool) a c b : boolish a -> (c = CV (VBool b) \/ c = CErr) ->
    boolish ((if d then cor else cand) a c) /\
    forall r aN, aN = CErr \/ aN = (if d then cor else cand) ((if d then cor else cand) a c) (CV (VBool r)) ->
                 aN = CErr \/ aN = (if d then cor else cand) a (CV (VBool (if d then b || r else b && r))).
  Proof.
    intros [-> | [[] ->]] [-> | ->]; destruct d; (split; [destruct b; cbn; unfold boolish; eauto|]);
      intros r aN H; destruct b, r; exact H || (destruct H; auto).
  Qed.

  (* the accumulator of filter and map: a list as long as the Go accumulator, or an error *)
  Definition listacc (n : nat) (a : cres) : Prop := a = CErr \/ exists l, a = CV (VList l) /\ length l = n.

  Lemma listacc_add n a u : listacc n a -> listacc (S n) (lift2 cadd a (CV (VList [u]))).
  Proof.
    intros [-> | [l [-> <-]]]; [left; reflexivity | right]. exists (l ++ [u]). rewrite app_length, Nat.add_comm. auto.
  Qed.

  Lemma listacc_R ws' a n : listacc (length ws') a -> (length ws' <= n)%nat -> in_i64 (Z.of_nat n) = true ->
    R SIfaces (Some a) (GV (GIface ws')).
  Proof.
    intros Ha Hn Hi. assert (Hi' : in_i64 (Z.of_nat (length ws')) = true) by (apply in_i64_spec; apply in_i64_spec in Hi; lia).
    destruct Ha as [-> | [l [-> Hl]]].
    - apply (R_err _ (Some (CV (VList (map (fun _ => VNull) ws'))))), R_intro.
      exists (map (fun _ => VNull) ws'), ws'. rewrite map_length. auto.
    - apply R_intro. exists l, ws'. auto.
  Qed.

  Lemma list1_eval cenv t :
    CE cenv (EList [t]) = match CE cenv t with Some (CV u) => Some (CV (VList [u])) | Some CErr => Some CErr | None => None end.
  Proof. cbn [ceval]. destruct (CE cenv t) as [[u|]|]; reflexivity. Qed.

  Section Loops.
    Variables (x acc : ident) (body : cexpr) (gb : gexpr) (te : sty) (cenv : cenv) (gvars : list (ident * gval)).
    Hypothesis Hxa : bytes_eqb x acc = false.
    Hypothesis Hbody : forall v w a, vrel te v w ->
      R SBool (CE ((x, CV v) :: (acc, a) :: cenv) body) (GE ((x, w) :: gvars) gb).

    Lemma acc_lookup v a : clookup ((x, CV v) :: (acc, a) :: cenv) acc = a.
    Proof. cbn [clookup]. rewrite Hxa, bytes_eqb_refl. reflexivity. Qed.

    Lemma body_res v w a : vrel te v w ->
      exists b c, GE ((x, w) :: gvars) gb = GV (GBool b) /\ CE ((x, CV v) :: (acc, a) :: cenv) body = Some c /\ (c = CV (VBool b) \/ c = CErr).
    Proof. intro H. destruct (R_some _ _ _ (Hbody v w a H)) as [v0 [w0 [c [Hg [[b [-> ->]] Hc]]]]]. eauto. Qed.

    (* all:    @result starts true;  loop while @not_strictly_false(@result);  step @result && body
       exists: @result starts false; loop while @not_strictly_false(!@result); step @result || body
       Where the loop stops, going on would change nothing. *)
    Lemma quant_fold_cons (d : bool) v vs a c : boolish a -> CE ((x, CV v) :: (acc, a) :: cenv) body = Some c ->
      cel_fold cenv x acc (ECall1 FNotStrictlyFalse (if d then ECall1 FNot (EIdent acc) else EIdent acc))
        (ECall2 (if d then FOr else FAnd) (EIdent acc) body) (v :: vs) a =
      cel_fold cenv x acc (ECall1 FNotStrictlyFalse (if d then ECall1 FNot (EIdent acc) else EIdent acc))
        (ECall2 (if d then FOr else FAnd) (EIdent acc) body) vs ((if d then cor else cand) a c).
    Proof.
      intros Ha Hc.
      set (cond := ECall1 FNotStrictlyFalse (if d then ECall1 FNot (EIdent acc) else EIdent acc)).
      set (step := ECall2 (if d then FOr else FAnd) (EIdent acc) body).
      assert (Ec : forall v a, CE ((x, CV v) :: (acc, a) :: cenv) cond = Some (cnsf (if d then cnot a else a)))
        by (intros; unfold cond; destruct d; cbn [ceval]; rewrite acc_lookup; reflexivity).
      assert (Es : CE ((x, CV v) :: (acc, a) :: cenv) step = Some ((if d then cor else cand) a c))
        by (unfold step; destruct d; cbn [ceval]; rewrite acc_lookup, Hc; reflexivity).
      (* of the two expressions only Ec and Es are used from here on; as variables they keep the terms small *)
      clearbody cond step. cbn [cel_fold]. rewrite Ec, Es.
      (* the loop's test is decided before the fold is unfolded again: under an undecided test the unfolded loop would be
         copied into each branch of the test *)
      destruct d, Ha as [-> | [[] ->]]; cbn [cnsf cnot negb]; try reflexivity;
        (destruct vs; [reflexivity|]; cbn [cel_fold]; rewrite Ec; reflexivity).
    Qed.

    Lemma quant_loop (d : bool) vs ws : Forall2 (vrel te) vs ws -> forall a, boolish a ->
      exists r aN, (if d then go_exists else go_all) (fun w => GE ((x, w) :: gvars) gb) ws = GV (GBool r) /\
        cel_fold cenv x acc (ECall1 FNotStrictlyFalse (if d then ECall1 FNot (EIdent acc) else EIdent acc))
          (ECall2 (if d then FOr else FAnd) (EIdent acc) body) vs a = Some aN /\
        (aN = CErr \/ aN = (if d then cor else cand) a (CV (VBool r))).
    Proof.
      induction 1 as [|v w vs ws Hvw _ IH]; intros a Ha.
      - exists (negb d), a. split; [destruct d; reflexivity|]. split; [reflexivity|]. destruct d, Ha as [-> | [[] ->]]; auto.
      - destruct (body_res v w a Hvw) as [b [c [Hg [Hc Hbc]]]]. destruct (quant_step d a c b Ha Hbc) as [Ha' Hstep].
        destruct (IH _ Ha') as [r [aN [Hr [Hf Hm]]]].
        exists (if d then b || r else b && r), aN. rewrite (quant_fold_cons d v vs a c Ha Hc).
        split; [destruct d; cbn [go_all go_exists]; rewrite Hg, Hr; destruct b; reflexivity|]. split; [exact Hf | exact (Hstep r aN Hm)].
    Qed.

    (* exists_one and filter: the loop never stops; step body ? @result + d : @result *)
    Lemma tern_fold_cons v vs a c d r1 : CE ((x, CV v) :: (acc, a) :: cenv) body = Some c ->
      CE ((x, CV v) :: (acc, a) :: cenv) d = Some r1 ->
      cel_fold cenv x acc (EConst (KBool true)) (ECall3 FTernary body (ECall2 FAdd (EIdent acc) d) (EIdent acc)) (v :: vs) a =
      cel_fold cenv x acc (EConst (KBool true)) (ECall3 FTernary body (ECall2 FAdd (EIdent acc) d) (EIdent acc)) vs
        (match c with CV (VBool true) => lift2 cadd a r1 | CV (VBool false) => a | _ => CErr end).
    Proof.
      intros Hc Hd. cbn [cel_fold ceval const_val]. rewrite acc_lookup, Hc, Hd.
      destruct c as [[[]| | | | | | | | |]|]; reflexivity.
    Qed.

    (* exists_one: @result starts 0; d = 1; result @result == 1.
       The accumulator is Go's count, or an error from the first failing body (or overflow) on. *)
    Lemma exists_one_loop vs ws : Forall2 (vrel te) vs ws -> forall (n : Z) (a : cres), (a = CV (VInt n) \/ a = CErr) ->
      exists r aN, go_exists_one (fun w => GE ((x, w) :: gvars) gb) ws n = GV (GBool r) /\
        cel_fold cenv x acc (EConst (KBool true))
          (ECall3 FTernary body (ECall2 FAdd (EIdent acc) (EConst (KInt 1))) (EIdent acc)) vs a = Some aN /\
        (aN = CErr \/ exists m, aN = CV (VInt m) /\ r = (m =? 1)).
    Proof.
      induction 1 as [|v w vs ws Hvw _ IH]; intros n a Ha.
      - exists (n =? 1), a. split; [reflexivity|]. split; [reflexivity|]. destruct Ha as [-> | ->]; eauto.
      - destruct (body_res v w a Hvw) as [b [c [Hg [Hc Hbc]]]].
        rewrite (tern_fold_cons v vs a c (EConst (KInt 1)) (CV (VInt 1)) Hc eq_refl). cbn [go_exists_one]. rewrite Hg.
        destruct b, Hbc as [-> | ->]; apply IH; auto.
        destruct Ha as [-> | ->]; [|auto]. cbn [lift2 cadd]. unfold chk_i. destruct (in_i64 (n + 1)); auto.
    Qed.

    (* filter: @result starts []; d = [x]. The elements kept so far and those still to visit are at most n. *)
    Lemma filter_loop n vs ws : Forall2 (vrel te) vs ws -> forall (gacc : list gval) (a : cres),
      listacc (length gacc) a -> (length gacc + length ws <= n)%nat ->
      exists ws' aN, go_filter (fun w => GE ((x, w) :: gvars) gb) ws gacc = GV (GIface ws') /\
        cel_fold cenv x acc (EConst (KBool true))
          (ECall3 FTernary body (ECall2 FAdd (EIdent acc) (EList [EIdent x])) (EIdent acc)) vs a = Some aN /\
        listacc (length ws') aN /\ (length ws' <= n)%nat.
    Proof.
      induction 1 as [|v w vs ws Hvw _ IH]; intros gacc a Ha Hn.
      - exists (rev gacc), a. rewrite rev_length. rewrite Nat.add_0_r in Hn. auto.
      - destruct (body_res v w a Hvw) as [b [c [Hg [Hc Hbc]]]].
        assert (Hx : CE ((x, CV v) :: (acc, a) :: cenv) (EList [EIdent x]) = Some (CV (VList [v]))).
        { rewrite list1_eval, acc_result. reflexivity. }
        rewrite (tern_fold_cons v vs a c _ _ Hc Hx). cbn [go_filter]. rewrite Hg.
        cbn [length] in Hn. rewrite Nat.add_succ_r in Hn. pose proof (Nat.lt_le_incl _ _ Hn) as Hn'.
        destruct b, Hbc as [-> | ->]; apply IH; cbn [length]; auto using listacc_add; left; reflexivity.
    Qed.
    Lemma quant_case (d : bool) r gr : R (SList te) (CE cenv r) (GE gvars gr) ->
      R SBool (CE cenv (ECompr x r acc (EConst (KBool (negb d))) (ECall1 FNotStrictlyFalse (if d then ECall1 FNot (EIdent acc) else EIdent acc))
                          (ECall2 (if d then FOr else FAnd) (EIdent acc) body) (EIdent acc)))
              (GE gvars ((if d then GExists else GAll) x gr gb)).
    Proof.
      intro Hr. apply compr_R with (vars := gvars) (gr := gr) (te := te) (a0 := CV (VBool (negb d))); [exact Hr | reflexivity |].
      intros vs ws F _ Hg. destruct (quant_loop d vs ws F (CV (VBool (negb d)))) as [b [aN [Hgo [Hf Hm]]]]; [right; eauto|].
      exists aN. split; [exact Hf|]. rewrite acc_result.
      replace (GE gvars ((if d then GExists else GAll) x gr gb)) with (GV (GBool b))
        by (destruct d; [rewrite (gexists_eval gvars x gr gb ws Hg) | rewrite (gall_eval gvars x gr gb ws Hg)]; auto).
      apply R_bool_intro. destruct d, b, Hm as [-> | ->]; auto.
    Qed.

    Lemma exists_one_case r gr : R (SList te) (CE cenv r) (GE gvars gr) ->
      R SBool (CE cenv (ECompr x r acc (EConst (KInt 0)) (EConst (KBool true))
                          (ECall3 FTernary body (ECall2 FAdd (EIdent acc) (EConst (KInt 1))) (EIdent acc))
                          (ECall2 FEq (EIdent acc) (EConst (KInt 1)))))
              (GE gvars (GExistsOne x gr gb)).
    Proof.
      intro Hr. apply compr_R with (vars := gvars) (gr := gr) (te := te) (a0 := (CV (VInt 0))); [exact Hr | reflexivity |]. intros vs ws F _ Hg.
      destruct (exists_one_loop vs ws F 0 (CV (VInt 0)) (or_introl eq_refl)) as [b [aN [Hgo [Hf Hm]]]].
      exists aN. split; [exact Hf|]. rewrite (gexists_one_eval gvars x gr gb ws Hg), Hgo.
      cbn [ceval clookup const_val]. rewrite bytes_eqb_refl. apply R_bool_intro.
      destruct Hm as [-> | [m [-> ->]]]; [right; reflexivity | left]. unfold ccmp. rewrite cequal_int. reflexivity.
    Qed.

    Lemma filter_case r gr : R (SList te) (CE cenv r) (GE gvars gr) ->
      R SIfaces (CE cenv (ECompr x r acc (EList []) (EConst (KBool true))
                            (ECall3 FTernary body (ECall2 FAdd (EIdent acc) (EList [EIdent x])) (EIdent acc)) (EIdent acc)))
                (GE gvars (GFilter x gr gb)).
    Proof.
      intro Hr. apply compr_R with (vars := gvars) (gr := gr) (te := te) (a0 := (CV (VList []))); [exact Hr | reflexivity |]. intros vs ws F L Hg.
      destruct (filter_loop (length ws) vs ws F [] (CV (VList []))) as [ws' [aN [Hgo [Hf [Hm Hn]]]]]; [right; exists []; auto | apply le_n |].
      exists aN. split; [exact Hf|]. rewrite (gfilter_eval gvars x gr gb ws Hg), Hgo, acc_result. exact (listacc_R _ _ _ Hm Hn L).
    Qed.
  End Loops.

  Definition boxable (t : sty) : bool :=
    match t with
    | SInt _ | SF64 | SStr | SBool | SKStr _ => true
    | SKInt _ z => in_kind IInt z
    | _ => false
    end.

  Lemma boxable_default t v w : boxable t = true -> vrel t v w -> default_type w <> GNilV.
  Proof.
    destruct t; cbn [boxable vrel]; try discriminate; intros Hb Hv.
    - destruct Hv as [z [_ [-> _]]]. discriminate.
    - destruct Hv as [b [_ ->]]. discriminate.
    - destruct Hv as [s [_ ->]]. discriminate.
    - destruct Hv as [b [_ ->]]. discriminate.
    - destruct Hv as [_ ->]. cbn [default_type]. rewrite Hb. discriminate.
    - destruct Hv as [_ ->]. discriminate.
  Qed.

  Lemma go_map_cons body w wu ws gacc : body w = GV wu -> default_type wu <> GNilV ->
    go_map body (w :: ws) gacc = go_map body ws ((match default_type wu with GBoxed u => u | u => u end) :: gacc).
  Proof. intros Hb Hd. cbn [go_map]. rewrite Hb. destruct (default_type wu); try reflexivity. destruct (Hd eq_refl). Qed.

  Section MapLoop.
    Variables (x acc : ident) (tx : cexpr) (gt : gexpr) (te tt : sty) (cenv : cenv) (gvars : list (ident * gval)).
    Hypothesis Hxa : bytes_eqb x acc = false.
    Hypothesis Htt : boxable tt = true.
    Hypothesis Hbody : forall v w a, vrel te v w ->
      R tt (CE ((x, CV v) :: (acc, a) :: cenv) tx) (GE ((x, w) :: gvars) gt).

    (* map: @result starts []; the loop never stops; step @result + [t] *)
    Lemma map_fold_cons v vs a c : CE ((x, CV v) :: (acc, a) :: cenv) tx = Some c ->
      cel_fold cenv x acc (EConst (KBool true)) (ECall2 FAdd (EIdent acc) (EList [tx])) (v :: vs) a =
      cel_fold cenv x acc (EConst (KBool true)) (ECall2 FAdd (EIdent acc) (EList [tx])) vs
        (match c with CV u => lift2 cadd a (CV (VList [u])) | CErr => CErr end).
    Proof.
      intro Hc. cbn [cel_fold ceval const_val]. rewrite (acc_lookup x acc cenv Hxa), Hc. destruct c, a; reflexivity.
    Qed.

    Lemma map_loop n vs ws : Forall2 (vrel te) vs ws -> forall (gacc : list gval) (a : cres),
      listacc (length gacc) a -> (length gacc + length ws <= n)%nat ->
      exists ws' aN, go_map (fun w => GE ((x, w) :: gvars) gt) ws gacc = GV (GIface ws') /\
        cel_fold cenv x acc (EConst (KBool true)) (ECall2 FAdd (EIdent acc) (EList [tx])) vs a = Some aN /\
        listacc (length ws') aN /\ (length ws' <= n)%nat.
    Proof.
      induction 1 as [|v w vs ws Hvw _ IH]; intros gacc a Ha Hn.
      - exists (rev gacc), a. rewrite rev_length. rewrite Nat.add_0_r in Hn. auto.
      - destruct (R_some _ _ _ (Hbody v w a Hvw)) as [u [wu [c [Hg [Hu [Hc Hcu]]]]]].
        pose proof (boxable_default tt u wu Htt Hu) as Hd.
        rewrite (map_fold_cons v vs a c Hc), (go_map_cons _ w wu ws gacc Hg Hd).
        cbn [length] in Hn. rewrite Nat.add_succ_r in Hn.
        destruct Hcu as [-> | ->]; apply IH; cbn [length]; auto using listacc_add. left; reflexivity.
    Qed.

    Lemma map_case r gr : R (SList te) (CE cenv r) (GE gvars gr) ->
      R SIfaces (CE cenv (ECompr x r acc (EList []) (EConst (KBool true)) (ECall2 FAdd (EIdent acc) (EList [tx])) (EIdent acc)))
                (GE gvars (GMapC x gr gt)).
    Proof.
      intro Hr. apply compr_R with (vars := gvars) (gr := gr) (te := te) (a0 := (CV (VList []))); [exact Hr | reflexivity |]. intros vs ws F L Hg.
      destruct (map_loop (length ws) vs ws F [] (CV (VList []))) as [ws' [aN [Hgo [Hf [Hm Hn]]]]]; [right; exists []; auto | apply le_n |].
      exists aN. split; [exact Hf|]. rewrite (gmap_eval gvars x gr gt ws Hg), Hgo, acc_result. exact (listacc_R _ _ _ Hm Hn L).
    Qed.
  End MapLoop.

  Lemma tr_compr_eq x r acc init cond step res :
    TR (ECompr x r acc init cond step res) =
    obind (TR r) (fun gr => obind (TR init) (fun gi => obind (TR step) (fun gs =>
      tr_compr x step gr gi gs
        (match step with
         | ECall2 FAnd _ c | ECall2 FOr _ c | ECall3 FTernary c _ _ => TR c
         | ECall2 FAdd _ (EList (t :: _)) => TR t
         | _ => None
         end)))).
  Proof. reflexivity. Qed.

  Lemma sound_compr G cenv vars x r acc init cond step res :
    (forall e', (csize e' < csize (ECompr x r acc init cond step res))%nat -> simple e' = true ->
       forall G cenv vars, env_ok G cenv vars -> sound_at G cenv vars e') ->
    simple (ECompr x r acc init cond step res) = true -> env_ok G cenv vars ->
    sound_at G cenv vars (ECompr x r acc init cond step res).
  Proof.
    intros IHe Hs Henv t g Hty Htr. cbn [simple] in Hs. apply andb_true_iff in Hs as [Hsr Hsb].
    (* typing: the names are apart, the range is a list, the loop is one of the five macros *)
    cbn [cty] in Hty.
    match type of Hty with (if ?c then _ else _) = _ => destruct c eqn:En; [discriminate Hty|] end.
    rewrite !orb_false_iff in En. destruct En as [[[[[[_ Hxa] Hxv] Hxt] Hav] Hat] Hacc].
    destruct (glookup (te_vars G) acc) eqn:Hacc'; [discriminate Hacc|].
    destruct (cty G r) as [[| | | | | | |te| |]|] eqn:Er; try discriminate Hty.
    destruct (macro_of x acc init cond step res) as [m|] eqn:Em; [|discriminate Hty].
    destruct (mentions acc r); [discriminate Hty|].
    destruct (macro_of_spec _ _ _ _ _ _ _ Em) as [Hres Hshape].
    (* translation: of the range, of the initial value, of the step; the node is chosen from the last two *)
    rewrite tr_compr_eq in Htr.
    apply obind_inv in Htr as [gr [Hgr Htr]]. apply obind_inv in Htr as [gi [Hgi Htr]]. apply obind_inv in Htr as [gs [Hgs Htr]].
    pose proof (IHe r (proj1 (csize_compr x r acc init cond step res)) Hsr G cenv vars Henv _ _ Er Hgr) as Rr.
    assert (Hb : forall body tb gb, (csize body < csize step)%nat -> simple body = true ->
                 cty (bind_var G x te) body = Some tb -> TR body = Some gb ->
                 forall v w a, vrel te v w -> R tb (CE ((x, CV v) :: (acc, a) :: cenv) body) (GE ((x, w) :: vars) gb)).
    { intros body tb gb Hsize Hsb' Htb Hgb v w a Hvw.
      apply (IHe body (Nat.lt_trans _ _ _ Hsize (proj2 (csize_compr x r acc init cond step res))) Hsb' (bind_var G x te)); try assumption.
      apply env_ok_bind; assumption. }
    destruct m; destruct Hshape as [-> [-> [body ->]]]; subst res; injection Hgi as <-.
    - (* all *)
      apply omap_inv in Htr as [gb [Hgb ->]]. apply sbool_inv in Hty as [Etb Hty]. injection Hty as <-.
      apply quant_case with (d := false) (te := te); auto. exact (Hb body SBool gb (proj2 (csize_call2 _ _ _)) Hsb Etb Hgb).
    - (* exists *)
      apply omap_inv in Htr as [gb [Hgb ->]]. apply sbool_inv in Hty as [Etb Hty]. injection Hty as <-.
      apply quant_case with (d := true) (te := te); auto. exact (Hb body SBool gb (proj2 (csize_call2 _ _ _)) Hsb Etb Hgb).
    - (* exists_one *)
      apply omap_inv in Htr as [gb [Hgb ->]]. apply sbool_inv in Hty as [Etb Hty]. injection Hty as <-.
      apply exists_one_case with (te := te); auto. exact (Hb body SBool gb (csize_call3 _ _ _ _) Hsb Etb Hgb).
    - (* filter: the step is rendered as a ternary closure *)
      cbn [tr] in Hgs. apply omap_inv in Hgs as [gb' [_ ->]].
      apply omap_inv in Htr as [gb [Hgb ->]]. apply sbool_inv in Hty as [Etb Hty]. injection Hty as <-.
      apply filter_case with (te := te); auto. exact (Hb body SBool gb (csize_call3 _ _ _ _) Hsb Etb Hgb).
    - (* map: the transform holds no ternary, or the step would be taken for a filter's *)
      apply andb_true_iff in Hsb as [Hsb Hnt]. destruct (TR body) as [gb|] eqn:Hgb; [|discriminate Hnt].
      (* the step's translation, computed: TR (EIdent acc) tests acc against "value" and "this" *)
      cbn [tr bin_of] in Hgs. rewrite Hgb, Hav, Hat in Hgs. injection Hgs as <-.
      (* tr_compr looks for a ternary in it: there is none outside gb *)
      unfold operand_of in Htr. cbn [go_prec call_fn Nat.eqb tr_compr has_iface has_tern orb] in Htr.
      destruct (has_tern gb); [discriminate Hnt|]. injection Htr as <-.
      destruct (cty (bind_var G x te) body) as [tb|] eqn:Etb; [|discriminate Hty].
      assert (Hbox : boxable tb = true /\ t = SIfaces).
      { destruct tb; try discriminate Hty; try (injection Hty as <-; auto).
        apply if_some in Hty as [Hz <-]. auto. }
      destruct Hbox as [Hbox ->].
      apply map_case with (te := te) (tt := tb); auto. exact (Hb body tb gb (Nat.lt_trans _ _ _ (csize_list1 _) (proj2 (csize_call2 _ _ _))) Hsb Etb Hgb).
  Qed.

  Lemma simple_call2 fn a b :
    simple (ECall2 fn a b) = true -> simple a = true /\ (simple b = true \/ exists l, fn = FIn /\ b = EList l).
  Proof.
    destruct fn; cbn [simple]; intro H; apply andb_true_iff in H as [Ha Hb]; (split; [exact Ha|]); auto. destruct b; eauto.
  Qed.

  Lemma call2_class G fn a b t : cty G (ECall2 fn a b) = Some t ->
    (cmp_fn fn <> None \/ arith_fn fn <> None) \/ fn = FAnd \/ fn = FOr \/ fn = FIn \/ fn = FMatches.
  Proof.
    intro H. destruct (cmp_fn fn) eqn:Ec; [left; left; discriminate|]. destruct (arith_fn fn) eqn:Ea; [left; right; discriminate|].
    (* any other function symbol is given no type, whatever its operands *)
    assert (E : forall oa ob : option sty, match oa, ob with Some _, Some _ => None | _, _ => None end = Some t -> False)
      by (intros [] []; discriminate).
    right. destruct fn; try discriminate Ec; try discriminate Ea; auto; destruct (E (cty G a) (cty G b) H).
  Qed.

  Lemma sound_aux e : simple e = true -> forall G cenv gvars, env_ok G cenv gvars -> sound_at G cenv gvars e.
  Proof.
    induction e as [e IHe] using (induction_ltof1 _ csize).
    intros Hs G cenv gvars Henv t g Hty Htr.
    destruct e; try discriminate Hs.
    - exact (sound_ident G cenv gvars x Henv t g Hty Htr).
    - exact (sound_select G cenv gvars e f test_only Henv t g Hty Htr).
    - injection Htr as <-. exact (const_R G cenv gvars k t Hty).
    - exact (sound_call1 G cenv gvars fn e (IHe e (csize_call1 fn e) Hs G cenv gvars Henv) t g Hty Htr).
    - destruct (simple_call2 fn e1 e2 Hs) as [Hsa Hsb].
      pose proof (fun vars' => IHe e1 (proj1 (csize_call2 fn e1 e2)) Hsa G cenv vars') as IHa.
      destruct Hsb as [Hsb | [l [-> ->]]].
      + pose proof (IHe e2 (proj2 (csize_call2 fn e1 e2)) Hsb G cenv gvars Henv) as IHb.
        destruct (call2_class G fn e1 e2 t Hty) as [Hfn | [-> | [-> | [-> | ->]]]].
        * exact (binop_case G cenv gvars fn e1 e2 Hfn (IHa gvars Henv) IHb t g Hty Htr).
        * exact (sound_logic G cenv gvars true e1 e2 (IHa gvars Henv) IHb t g Hty Htr).
        * exact (sound_logic G cenv gvars false e1 e2 (IHa gvars Henv) IHb t g Hty Htr).
        * exact (sound_in G cenv gvars e1 e2 Henv IHa (fun _ => IHb) t g Hty Htr).
        * exact (sound_matches G cenv gvars e1 e2 (IHa gvars Henv) IHb t g Hty Htr).
      + (* membership in a list of literals, which need not be simple *)
        exact (sound_in G cenv gvars e1 (EList l) Henv IHa (False_ind _) t g Hty Htr).
    - apply andb_true_iff in Hs as [Hsa Hsb].
      exact (sound_meth1 G cenv gvars fn e1 e2 (IHe e1 (proj1 (csize_meth1 fn e1 e2)) Hsa G cenv gvars Henv)
               (IHe e2 (proj2 (csize_meth1 fn e1 e2)) Hsb G cenv gvars Henv) t g Hty Htr).
    - exact (sound_compr G cenv gvars iter_var e1 accu_var e2 e3 e4 e5 IHe Hs Henv t g Hty Htr).
  Qed.

  Definition G0 : tenv := {| te_fields := fts; te_fname := fname; te_vars := [] |}.

  Lemma env0_ok : env_ok G0 (cel_env fname rho) [].
  Proof.
    unfold env_ok, cel_env. cbn [te_fields te_fname te_vars clookup].
    repeat split. intros x t _ H. discriminate.
  Qed.

  Definition proved_fragment (e : cexpr) : bool := in_fragment fts fname e && simple e.

  (* For every struct value of the declared field types: the emitted condition `!(g)` evaluates to a boolean
     (no panic, no type error), and whenever cel-go yields a boolean b it is the negation of b: the CEL error is
     reported iff the expression is false. *)
  Theorem translation_sound e g :
    proved_fragment e = true -> TR e = Some g ->
    exists r, GE [] (GNot (paren g)) = GV (GBool r) /\
              (forall b, CE (cel_env fname rho) e = Some (CV (VBool b)) -> r = negb b).
  Proof.
    intros Hf Htr. apply andb_true_iff in Hf as [Hf Hs]. unfold in_fragment in Hf.
    destruct (cty {| te_fields := fts; te_fname := fname; te_vars := [] |} e) as [t|] eqn:Ht; [|discriminate].
    destruct t; try discriminate.
    pose proof (sound_aux e Hs G0 (cel_env fname rho) [] env0_ok SBool g Ht Htr) as HR.
    destruct (R_bool _ _ HR) as [x [Hg Hc]].
    exists (negb x). split.
    - cbn [geval]. rewrite paren_eval, Hg. reflexivity.
    - intros b Hb. destruct Hc as [Hc | Hc]; rewrite Hc in Hb; [injection Hb as <-; reflexivity | discriminate Hb].
  Qed.
End Sound.

(* the statement about the generator's output: the condition emitted for a cel marker *)
Theorem cel_condition_sound re_match parse_float fmt_g parse_dur re_ok fts fname rho src e cond :
  (forall p, re_ok p = true -> forall s, re_match p s <> None) ->
  (forall s z, parse_dur s = Some z -> in_i64 z = true) ->
  struct_ok fts rho = true ->
  proved_fragment re_ok fts fname e = true ->
  cel_condition fname re_ok src (Some e) = Some cond ->
  exists r, geval re_match parse_float fmt_g parse_dur (go_fields rho) [] cond = GV (GBool r) /\
            (forall b, ceval re_match parse_float fmt_g parse_dur (cel_env fname rho) e = Some (CV (VBool b)) -> r = negb b).
Proof.
  intros Hre Hdur Hrho Hf Hc. unfold cel_condition in Hc.
  destruct (prefilter_rejects src); [discriminate|].
  apply omap_inv in Hc as [g [Htr ->]]. eapply translation_sound; eassumption.
Qed.
