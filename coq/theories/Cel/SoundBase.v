(* The relation between CEL values and the Go values of the translation, and the operator-level
   agreement lemmas used by Cel/Sound.v. *)
From GV Require Import Base.Bytes Base.StrOps Base.GoFloat Cel.Syntax Cel.CelSem Cel.GoSem Cel.Env Cel.Typing.
From Coq Require Import ZifyBool.
Local Open Scope Z_scope.

(* the value relation, indexed by the static type of the fragment *)
Fixpoint vrel (t : sty) (v : cval) (w : gval) : Prop :=
  match t with
  | SInt k => exists z, v = cint k z /\ w = GInt k z /\ in_kind k z = true
  | SF64 => exists b, v = VDouble b /\ w = GF64 b
  | SStr => exists s, v = VString s /\ w = GStr s
  | SKStr s => v = VString s /\ w = GStr s
  | SBool => exists b, v = VBool b /\ w = GBool b
  | SKInt u z => v = (if u then VUint z else VInt z) /\ w = GUInt z
  | SKDbl b => v = VDouble b /\ (w = GUFloat b \/ exists z, w = GUInt z /\ z2f z = b)
  | SList te => exists vs ws, v = VList vs /\ w = GSlice ws /\ Forall2 (vrel te) vs ws /\ in_i64 (Z.of_nat (length ws)) = true
  | SIfaces => exists vs ws, v = VList vs /\ w = GIface ws /\ length vs = length ws /\ in_i64 (Z.of_nat (length ws)) = true
  | SMapSI => exists m gm, v = VMap m /\ w = GMap gm /\ length m = length gm /\ in_i64 (Z.of_nat (length gm)) = true
  end.

(* the Go side always produces a value of the right type; the CEL side produces the related value or an error.
   In the error case [v0] only witnesses, through [vrel], that [w] is a Go value of the type [t] stands for. *)
Definition R (t : sty) (oc : option cres) (g : gres) : Prop :=
  exists v0 w, g = GV w /\ vrel t v0 w /\ (oc = Some (CV v0) \/ oc = Some CErr).

Lemma R_intro t v w : vrel t v w -> R t (Some (CV v)) (GV w).
Proof. intro H. exists v, w. auto. Qed.

Lemma in_i64_spec z : in_i64 z = true <-> -9223372036854775808 <= z <= 9223372036854775807.
Proof. unfold in_i64, min_i64, max_i64. lia. Qed.
Lemma in_u64_spec z : in_u64 z = true <-> 0 <= z <= 18446744073709551615.
Proof. unfold in_u64, max_u64. lia. Qed.

Lemma in_kind_spec k z : in_kind k z = true <-> k_min k <= z <= k_max k.
Proof. unfold in_kind. lia. Qed.

Lemma k_bits_pos k : 0 < k_bits k.
Proof. destruct k; reflexivity. Qed.

(* h = 2 ^ (bits - 1): a kind ranges over [-h, h) or [0, 2h) and wrap reduces modulo 2h, whatever the width *)
Lemma pow2_bits k : 2 ^ k_bits k = 2 * 2 ^ (k_bits k - 1).
Proof. pose proof (k_bits_pos k). rewrite <- Z.pow_succ_r by lia. apply f_equal. lia. Qed.

Lemma wrap_id k z : in_kind k z = true -> wrap k z = z.
Proof.
  rewrite in_kind_spec. unfold wrap, k_min, k_max. rewrite pow2_bits.
  destruct (k_signed k); intro; rewrite Z.mod_small by lia; lia.
Qed.

Lemma wrap_in_kind k z : in_kind k (wrap k z) = true.
Proof.
  apply in_kind_spec. unfold wrap, k_min, k_max. rewrite pow2_bits. set (h := 2 ^ (k_bits k - 1)).
  assert (0 < h) by (pose proof (k_bits_pos k); apply Z.pow_pos_nonneg; lia).
  destruct (k_signed k); [pose proof (Z.mod_pos_bound (z + h) (2 * h)) | pose proof (Z.mod_pos_bound z (2 * h))]; lia.
Qed.

(* for a 64-bit kind, Go's range is the one cel-go checks its results against *)
Lemma in_kind_64 k z : is64 k = true -> in_kind k z = in_cel (unsigned_k k) z.
Proof. destruct k; try discriminate; reflexivity. Qed.

(* where cel-go's checked arithmetic succeeds, Go's wrapped result is the exact one *)
Lemma wrap_checked k z : is64 k = true -> in_cel (unsigned_k k) z = true -> wrap k z = z.
Proof. intros H6 Hz. apply wrap_id. rewrite in_kind_64 by exact H6. exact Hz. Qed.

(* a CEL integer of either signedness: the CEL side of [vrel (SKInt u z)], and [cint k] for a kind that is not a Duration *)
Definition cnum (u : bool) (z : Z) : cval := if u then VUint z else VInt z.

Lemma cint_num k z : not_dur k = true -> cint k z = cnum (unsigned_k k) z.
Proof. destruct k; try discriminate; reflexivity. Qed.

Lemma cint_signed k z : k_signed k = true -> not_dur k = true -> cint k z = VInt z.
Proof. destruct k; cbn; congruence. Qed.
Lemma cint_unsigned k z : k_signed k = false -> cint k z = VUint z.
Proof. destruct k; cbn; congruence. Qed.
Lemma cint_cases k z : not_dur k = true -> cint k z = VInt z \/ cint k z = VUint z.
Proof. intro H. rewrite cint_num by exact H. destruct (unsigned_k k); auto. Qed.

Lemma ikind_eqb_eq a b : ikind_eqb a b = true -> a = b.
Proof. destruct a, b; (reflexivity || discriminate). Qed.
Lemma ikind_eqb_refl a : ikind_eqb a a = true.
Proof. destruct a; reflexivity. Qed.

(* an untyped constant takes the type of the other operand *)
Lemma gbinop_int_const op k x z : in_kind k z = true -> gbinop op (GInt k x) (GUInt z) = gbinop op (GInt k x) (GInt k z).
Proof. intro H. unfold gbinop, unify. rewrite H, ikind_eqb_refl. reflexivity. Qed.
Lemma gbinop_const_int op k z y : in_kind k z = true -> gbinop op (GUInt z) (GInt k y) = gbinop op (GInt k z) (GInt k y).
Proof. intro H. unfold gbinop, unify. rewrite H, ikind_eqb_refl. reflexivity. Qed.
Lemma gbinop_dbl_const op (w : gval) b x :
  (w = GUFloat b \/ exists z, w = GUInt z /\ z2f z = b) ->
  gbinop op (GF64 x) w = gbinop op (GF64 x) (GF64 b) /\ gbinop op w (GF64 x) = gbinop op (GF64 b) (GF64 x).
Proof. intros [-> | (z & -> & <-)]; split; reflexivity. Qed.

Lemma strlike_vrel t v w : is_strlike t = true -> vrel t v w -> exists s, v = VString s /\ w = GStr s.
Proof. destruct t; try discriminate; intros _ H; [exact H | destruct H; eauto]. Qed.

Lemma zcmp_compare op x y : zcmp op x y = of_cmp3 op (Z.compare x y).
Proof.
  destruct op; unfold zcmp, Z.ltb, Z.leb; rewrite ?Z.eqb_compare, ?(Z.compare_antisym x y); destruct (x ?= y); reflexivity.
Qed.

Lemma bytes_cmp_eq x y : (match bytes_cmp x y with Eq => true | _ => false end) = bytes_eqb x y.
Proof. unfold bytes_cmp. destruct (bytes_eqb x y); [reflexivity|]. destruct (bytes_ltb x y); reflexivity. Qed.

Definition gop_of (op : cmpop) : gbin :=
  match op with OpEq => BEq | OpNe => BNe | OpLt => BLt | OpLe => BLe | OpGt => BGt | OpGe => BGe end.

Lemma cmp_of_gop op : cmp_of (gop_of op) = Some op.
Proof. destruct op; reflexivity. Qed.

Lemma gcmp_ints op k x y : gbinop (gop_of op) (GInt k x) (GInt k y) = GV (GBool (zcmp op x y)).
Proof. unfold gbinop, unify. rewrite ikind_eqb_refl. destruct op; reflexivity. Qed.
Lemma gcmp_floats op x y : gbinop (gop_of op) (GF64 x) (GF64 y) = GV (GBool (fcmp64 op x y)).
Proof. destruct op; reflexivity. Qed.

(* cel-go on two numbers, whatever their types: a NaN cannot be ordered, everything else is decided by num_cmp *)
Lemma ccmp_num op a b r : num_cmp a b = Some r ->
  ccmp op (CV a) (CV b) =
  match r, op with
  | None, (OpLt | OpLe | OpGt | OpGe) => CErr
  | _, _ => CV (VBool (of_cmp op r))
  end.
Proof.
  intro H.
  assert (E : cequal a b = of_cmp OpEq r)
    by (destruct a; try discriminate H; cbn [cequal]; rewrite H; destruct r as [[]|]; reflexivity).
  unfold ccmp, ccompare. rewrite E, H. destruct op, r as [[]|]; reflexivity.
Qed.

Lemma ccmp_ints op u u' x y : ccmp op (CV (cnum u x)) (CV (cnum u' y)) = CV (VBool (zcmp op x y)).
Proof. rewrite zcmp_compare. apply (ccmp_num op _ _ (Some (x ?= y))). destruct u, u'; reflexivity. Qed.

(* where cel-go refuses to order a NaN, Go answers false *)
Lemma ccmp_dbl op a b x y : num_cmp a b = Some (fcompare x y) ->
  ccmp op (CV a) (CV b) = CErr \/ ccmp op (CV a) (CV b) = CV (VBool (fcmp64 op x y)).
Proof.
  intro H. rewrite (ccmp_num op a b _ H). change (fcmp64 op x y) with (of_cmp op (fcompare x y)).
  destruct (fcompare x y), op; auto.
Qed.

Lemma ccmp_durs op x y : ccmp op (CV (VDur x)) (CV (VDur y)) = CV (VBool (zcmp op x y)).
Proof. destruct op; try reflexivity; rewrite zcmp_compare; reflexivity. Qed.

Lemma ccmp_cint op k x y : ccmp op (CV (cint k x)) (CV (cint k y)) = CV (VBool (zcmp op x y)).
Proof.
  destruct (not_dur k) eqn:Hd; [rewrite !cint_num by exact Hd; apply ccmp_ints|].
  destruct k; try discriminate Hd. apply ccmp_durs.
Qed.

Lemma ccmp_strings op x y :
  ccmp op (CV (VString x)) (CV (VString y)) = CV (VBool (of_cmp3 op (bytes_cmp x y))).
Proof.
  unfold ccmp, cequal. destruct op; try reflexivity; rewrite <- bytes_cmp_eq; destruct (bytes_cmp x y); reflexivity.
Qed.

Lemma ccmp_bools op x y : is_eqne op = true ->
  ccmp op (CV (VBool x)) (CV (VBool y)) = CV (VBool (match op with OpEq => Bool.eqb x y | _ => negb (Bool.eqb x y) end)).
Proof. destruct op; try discriminate; reflexivity. Qed.

Lemma cmp_sound op ta tb va vb wa wb :
  cmp_ok op ta tb = true -> vrel ta va wa -> vrel tb vb wb ->
  exists b, gbinop (gop_of op) wa wb = GV (GBool b) /\
            (ccmp op (CV va) (CV vb) = CErr \/ ccmp op (CV va) (CV vb) = CV (VBool b)).
Proof.
  intros Hok Ha Hb.
  destruct (is_strlike ta && is_strlike tb) eqn:Es.
  { apply andb_true_iff in Es as [Sa Sb].
    destruct (strlike_vrel _ _ _ Sa Ha) as (x & -> & ->), (strlike_vrel _ _ _ Sb Hb) as (y & -> & ->).
    exists (of_cmp3 op (bytes_cmp x y)). split; [destruct op; reflexivity | right; apply ccmp_strings]. }
  (* one case for each remaining row of cmp_ok; a constant next to a typed operand is first given that operand's type *)
  destruct ta, tb; try discriminate Hok; try discriminate Es.
  - (* SInt, SInt *)
    destruct Ha as (x & -> & -> & _), Hb as (y & -> & -> & _). apply ikind_eqb_eq in Hok as <-.
    exists (zcmp op x y). split; [apply gcmp_ints | right; apply ccmp_cint].
  - (* SInt, SKInt *)
    destruct Ha as (x & -> & -> & _), Hb as [-> ->]. apply andb_true_iff in Hok as [Hd Hk].
    exists (zcmp op x z). rewrite gbinop_int_const, cint_num by assumption. split; [apply gcmp_ints | right; apply ccmp_ints].
  - (* SF64, SF64 *)
    destruct Ha as (x & -> & ->), Hb as (y & -> & ->).
    exists (fcmp64 op x y). split; [apply gcmp_floats | apply ccmp_dbl; reflexivity].
  - (* SF64, SKInt *)
    destruct Ha as (x & -> & ->), Hb as [-> ->].
    exists (fcmp64 op x (z2f z)). split; [destruct op; reflexivity | apply ccmp_dbl; destruct unsigned; reflexivity].
  - (* SF64, SKDbl *)
    destruct Ha as (x & -> & ->), Hb as [-> Hw]. rewrite (proj1 (gbinop_dbl_const _ _ _ x Hw)).
    exists (fcmp64 op x bits). split; [apply gcmp_floats | apply ccmp_dbl; reflexivity].
  - (* SBool, SBool *)
    destruct Ha as (x & -> & ->), Hb as (y & -> & ->).
    eexists. split; [|right; apply ccmp_bools, Hok]. destruct op; try discriminate Hok; reflexivity.
  - (* SKInt, SInt *)
    destruct Ha as [-> ->], Hb as (y & -> & -> & _). apply andb_true_iff in Hok as [Hd Hk].
    exists (zcmp op z y). rewrite gbinop_const_int, cint_num by assumption. split; [apply gcmp_ints | right; apply ccmp_ints].
  - (* SKInt, SF64 *)
    destruct Ha as [-> ->], Hb as (y & -> & ->).
    exists (fcmp64 op (z2f z) y). split; [destruct op; reflexivity | apply ccmp_dbl; destruct unsigned; reflexivity].
  - (* SKInt, SKInt *)
    destruct Ha as [-> ->], Hb as [-> ->].
    exists (zcmp op z z0). split; [destruct op; reflexivity | right; apply ccmp_ints].
  - (* SKDbl, SF64 *)
    destruct Ha as [-> Hw], Hb as (y & -> & ->). rewrite (proj2 (gbinop_dbl_const _ _ _ y Hw)).
    exists (fcmp64 op bits y). split; [apply gcmp_floats | apply ccmp_dbl; reflexivity].
Qed.

Definition carith (o : arith) : cval -> cval -> cres :=
  match o with AAdd => cadd | ASub => csub | AMul => cmul | ADiv => cdiv | AMod => cmod end.
Definition garith (o : arith) : gbin :=
  match o with AAdd => BAdd | ASub => BSub | AMul => BMul | ADiv => BDiv | AMod => BRem end.

Lemma vrel_int_intro k z : in_kind k z = true -> vrel (SInt k) (cint k z) (GInt k z).
Proof. intro H. exists z. auto. Qed.

Lemma is64_not_dur k : is64 k = true -> not_dur k = true.
Proof. destruct k; cbn; congruence. Qed.

(* arith_ty's divlike *)
Definition divlike (o : arith) : bool := match o with ADiv | AMod => true | _ => false end.

Lemma garith_ints o k x y : divlike o && (y =? 0) = false ->
  gbinop (garith o) (GInt k x) (GInt k y) = GV (GInt k (wrap k (zarith o x y))).
Proof. intro H. unfold gbinop, unify. rewrite ikind_eqb_refl. destruct o; cbn in H |- *; rewrite ?H; reflexivity. Qed.
Lemma garith_consts o x y : divlike o && (y =? 0) = false ->
  gbinop (garith o) (GUInt x) (GUInt y) = GV (GUInt (zarith o x y)).
Proof. intro H. destruct o; cbn in H |- *; rewrite ?H; reflexivity. Qed.

(* cel-go's overflow check, for either signedness *)
Definition cchk (u : bool) (z : Z) : cres := if in_cel u z then CV (cnum u z) else CErr.

Lemma cchk_cases u z : cchk u z = CErr \/ in_cel u z = true /\ cchk u z = CV (cnum u z).
Proof. unfold cchk. destruct (in_cel u z); auto. Qed.

Lemma carith_num o u x y :
  carith o (cnum u x) (cnum u y) =
  match o with
  | ADiv => if y =? 0 then CErr else cchk u (Z.quot x y)
  | AMod => if y =? 0 then CErr else if negb u && (x =? min_i64) && (y =? -1) then CErr else CV (cnum u (Z.rem x y))
  | _ => cchk u (zarith o x y)
  end.
Proof. destruct o, u; reflexivity. Qed.

Lemma carith_ints o u x y :
  in_cel u x = true -> in_cel u y = true -> divlike o && (y =? 0) = false ->
  carith o (cnum u x) (cnum u y) = CErr \/
  in_cel u (zarith o x y) = true /\ carith o (cnum u x) (cnum u y) = CV (cnum u (zarith o x y)).
Proof.
  intros Hx Hy Hnz. rewrite carith_num.
  destruct o; cbn [divlike andb zarith] in *; rewrite ?Hnz; try apply cchk_cases.
  (* the remainder is not checked: it is smaller than the divisor and has the sign of the dividend *)
  destruct (negb u && _ && _); [auto|right]. split; [|reflexivity].
  pose proof (Z.rem_bound_abs x y ltac:(lia)).
  destruct u; [pose proof (Z.rem_nonneg x y); rewrite in_u64_spec in * | rewrite in_i64_spec in *]; lia.
Qed.

Lemma int64_arith o k x y :
  is64 k = true -> in_kind k x = true -> in_kind k y = true -> divlike o && (y =? 0) = false ->
  exists v0 w, gbinop (garith o) (GInt k x) (GInt k y) = GV w /\ vrel (SInt k) v0 w /\
    (carith o (cnum (unsigned_k k) x) (cnum (unsigned_k k) y) = CErr \/
     carith o (cnum (unsigned_k k) x) (cnum (unsigned_k k) y) = CV v0).
Proof.
  intros H6 Hx Hy Hnz. exists (cint k (wrap k (zarith o x y))), (GInt k (wrap k (zarith o x y))).
  split; [apply garith_ints, Hnz|]. split; [apply vrel_int_intro, wrap_in_kind|].
  rewrite in_kind_64 in Hx, Hy by exact H6.
  destruct (carith_ints o _ x y Hx Hy Hnz) as [E | [Hr E]]; [left; exact E | right].
  rewrite E, (wrap_checked k _ H6 Hr), cint_num by apply is64_not_dur, H6. reflexivity.
Qed.

Lemma float_arith o t x y : arith_ty o SF64 SF64 = Some t ->
  exists v0 w, gbinop (garith o) (GF64 x) (GF64 y) = GV w /\ vrel t v0 w /\
    (carith o (VDouble x) (VDouble y) = CErr \/ carith o (VDouble x) (VDouble y) = CV v0).
Proof.
  destruct o; intro H; inversion H; (eexists _, _; split; [reflexivity|]; split; [cbn; eauto | right; reflexivity]).
Qed.

Lemma arith_sound o ta tb t va vb wa wb :
  arith_ty o ta tb = Some t -> vrel ta va wa -> vrel tb vb wb ->
  exists v0 w, gbinop (garith o) wa wb = GV w /\ vrel t v0 w /\ (carith o va vb = CErr \/ carith o va vb = CV v0).
Proof.
  intros Hty Ha Hb.
  destruct (is_strlike ta && is_strlike tb) eqn:Es.
  { apply andb_true_iff in Es as [Sa Sb].
    destruct (strlike_vrel _ _ _ Sa Ha) as (x & -> & ->), (strlike_vrel _ _ _ Sb Hb) as (y & -> & ->).
    assert (o = AAdd /\ t = SStr) as [-> ->] by (destruct ta, tb; try discriminate; destruct o; inversion Hty; auto).
    exists (VString (x ++ y)), (GStr (x ++ y)). split; [reflexivity|]. split; [cbn; eauto | right; reflexivity]. }
  (* one case for each remaining row of arith_ty; a constant next to a field is first given the field's type *)
  (* for the pairs that no row accepts, arith_ty reduces to this match: [N] discards them by conversion *)
  assert (N : forall o', match o' with AAdd => None | _ => None end = Some t -> False) by (intros []; discriminate).
  destruct ta, tb; try discriminate Es; try destruct (N _ Hty).
  - (* SInt, SInt *)
    apply if_some in Hty as [E <-]. rewrite !andb_true_iff in E. destruct E as [[Ek H6] Hd].
    apply ikind_eqb_eq in Ek as <-. apply negb_true_iff in Hd.
    destruct Ha as (x & -> & -> & Hx), Hb as (y & -> & -> & Hy). rewrite !cint_num by apply is64_not_dur, H6.
    apply int64_arith; try assumption. unfold divlike. rewrite Hd. reflexivity.
  - (* SInt, SKInt *)
    apply if_some in Hty as [E <-]. rewrite !andb_true_iff in E. destruct E as [[[[H6 Hu] Hk] _] Hnz].
    apply Bool.eqb_prop in Hu as ->. apply negb_true_iff in Hnz.
    destruct Ha as (x & -> & -> & Hx), Hb as [-> ->]. rewrite gbinop_int_const, cint_num by auto using is64_not_dur.
    apply int64_arith; assumption.
  - (* SF64, SF64 *)
    destruct Ha as (x & -> & ->), Hb as (y & -> & ->). apply float_arith, Hty.
  - (* SF64, SKDbl *)
    destruct Ha as (x & -> & ->), Hb as [-> Hw]. rewrite (proj1 (gbinop_dbl_const _ _ _ x Hw)). apply float_arith, Hty.
  - (* SKInt, SInt *)
    apply if_some in Hty as [E <-]. rewrite !andb_true_iff in E. destruct E as [[[[H6 Hu] Hk] _] Hd].
    apply Bool.eqb_prop in Hu as ->. apply negb_true_iff in Hd.
    destruct Ha as [-> ->], Hb as (y & -> & -> & Hy). rewrite gbinop_const_int, cint_num by auto using is64_not_dur.
    apply int64_arith; try assumption. unfold divlike. rewrite Hd. reflexivity.
  - (* SKInt, SKInt *)
    apply if_some in Hty as [E <-]. rewrite !andb_true_iff in E. destruct E as [[[[[Hu Hx] Hy] Hnz] _] _].
    apply Bool.eqb_prop in Hu as <-. apply negb_true_iff in Hnz.
    destruct Ha as [-> ->], Hb as [-> ->].
    exists (cnum unsigned (zarith o z z0)), (GUInt (zarith o z z0)). split; [apply garith_consts, Hnz|]. split; [split; reflexivity|].
    destruct (carith_ints o unsigned z z0 Hx Hy Hnz) as [E | [_ E]]; auto.
  - (* SKDbl, SF64 *)
    destruct Ha as [-> Hw], Hb as (y & -> & ->). rewrite (proj2 (gbinop_dbl_const _ _ _ y Hw)). apply float_arith, Hty.
Qed.
