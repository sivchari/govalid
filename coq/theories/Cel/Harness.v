(* What the per-run files of C10 evaluate: one [celcase] per corpus expression, written by
   `genharness celcoq` from cel-go's AST, the emitted Go condition and the observations of the compiled
   validator and of cel-go on every binding. *)
From GV Require Import Base.Bytes Cel.Syntax Cel.CelSem Cel.GoSem Cel.Translate Cel.Env Cel.Typing Cel.Sound.
Local Open Scope Z_scope.

Inductive gobs := GoPass | GoFail | GoPanic | GoOther.
Inductive cobs := CelTrue | CelFalse | CelErr | CelNonBool | CelNoCompile.

Record celcase := {
  cc_src : bytes;                               (* the marker's expression text *)
  cc_fname : ident;
  cc_fields : list (ident * fty);
  cc_ast : option cexpr;                        (* cel-go's AST; None: cel-go rejects the expression *)
  cc_generated : bool;                          (* govalid wrote a validator file *)
  cc_real : option gexpr;                       (* go/parser's view of the emitted condition *)
  cc_durs : list (bytes * option Z);            (* time.ParseDuration on the string constants *)
  cc_res : list (bytes * bool);                 (* regexp.Compile succeeds, on the string constants *)
  cc_rows : list (struct_val * gobs * cobs)     (* binding, compiled validator, cel-go *)
}.

(* executable stand-ins for the oracles: regexps and float text are not evaluated in Coq *)
Definition no_re (_ _ : bytes) : option bool := None.
Definition no_pf (_ : bytes) : option Z := None.
Definition no_fg (_ : Z) : bytes := [].
Definition dur_of (tab : list (bytes * option Z)) (s : bytes) : option Z :=
  match glookup tab s with Some r => r | None => None end.

(* does evaluating the expression consult an oracle that has no executable stand-in? *)
Fixpoint uses_text_oracle (e : cexpr) : bool :=
  let fix any (l : list cexpr) : bool := match l with [] => false | y :: r => uses_text_oracle y || any r end in
  match e with
  | ECall1 (FDouble | FString) a => true
  | ECall2 FMatches _ _ | EMeth1 FMatches _ _ => true
  | EIdent _ | EConst _ | EStruct | EOther => false
  | ESelect a _ _ | ECall1 _ a | EMeth0 _ a => uses_text_oracle a
  | ECall2 _ a b | EMeth1 _ a b => uses_text_oracle a || uses_text_oracle b
  | ECall3 _ a b c => uses_text_oracle a || uses_text_oracle b || uses_text_oracle c
  | EList l => any l
  | ECompr _ r _ i c s res => uses_text_oracle r || uses_text_oracle i || uses_text_oracle c || uses_text_oracle s || uses_text_oracle res
  end.
(* string(int) and string(string) are evaluated exactly; only string(double) needs the float printer *)
Fixpoint uses_float_text (G : tenv) (e : cexpr) : bool :=
  let fix any (l : list cexpr) : bool := match l with [] => false | y :: r => uses_float_text G y || any r end in
  match e with
  | ECall1 FDouble _ => true
  | ECall1 FString a => match cty G a with Some (SInt _) | Some SStr | Some (SKStr _) => uses_float_text G a | _ => true end
  | ECall2 FMatches _ _ | EMeth1 FMatches _ _ => true
  | EIdent _ | EConst _ | EStruct | EOther => false
  | ESelect a _ _ | ECall1 _ a | EMeth0 _ a => uses_float_text G a
  | ECall2 _ a b | EMeth1 _ a b => uses_float_text G a || uses_float_text G b
  | ECall3 _ a b c => uses_float_text G a || uses_float_text G b || uses_float_text G c
  | EList l => any l
  | ECompr _ r _ i c s res => uses_float_text G r || uses_float_text G i || uses_float_text G c || uses_float_text G s || uses_float_text G res
  end.

Definition cel_model (c : celcase) (rho : struct_val) : option cobs :=
  match cc_ast c with
  | None => Some CelNoCompile
  | Some e =>
      match ceval no_re no_pf no_fg (dur_of (cc_durs c)) (cel_env (cc_fname c) rho) e with
      | Some (CV (VBool true)) => Some CelTrue
      | Some (CV (VBool false)) => Some CelFalse
      | Some (CV _) => Some CelNonBool
      | Some CErr => Some CelErr
      | None => None
      end
  end.

Definition go_model (c : celcase) (g : gexpr) (rho : struct_val) : option gobs :=
  match geval no_re no_pf no_fg (dur_of (cc_durs c)) (go_fields rho) [] g with
  | GV (GBool true) => Some GoFail             (* the condition of the if statement holds: the CEL error is reported *)
  | GV (GBool false) => Some GoPass
  | GPanic => Some GoPanic
  | _ => None
  end.

Definition gobs_eqb (a b : gobs) : bool :=
  match a, b with GoPass, GoPass | GoFail, GoFail | GoPanic, GoPanic | GoOther, GoOther => true | _, _ => false end.
Definition cobs_eqb (a b : cobs) : bool :=
  match a, b with
  | CelTrue, CelTrue | CelFalse, CelFalse | CelErr, CelErr | CelNonBool, CelNonBool | CelNoCompile, CelNoCompile => true
  | _, _ => false
  end.

Fixpoint indices_where {A} (f : A -> bool) (l : list A) (i : nat) : list nat :=
  match l with
  | [] => []
  | x :: r => if f x then i :: indices_where f r (S i) else indices_where f r (S i)
  end.

Record celreport := {
  cr_model_generates : bool;        (* the generator model produces a condition *)
  cr_cert : bool;                   (* emitted condition = model's condition *)
  cr_fragment : bool;               (* the expression is in the proved fragment *)
  cr_structs_ok : bool;             (* every binding is a well-typed struct value *)
  cr_cel_evaluated : nat;           (* bindings on which the reference model was compared with cel-go *)
  cr_cel_mismatch : list nat;
  cr_go_evaluated : nat;
  cr_go_mismatch : list nat;
  cr_spec_violation : list nat      (* cel-go yields a boolean and the compiled validator disagrees *)
}.

Definition check_case (c : celcase) : celreport :=
  let re_ok p := match glookup (cc_res c) p with Some b => b | None => true end in
  let model := cel_condition (cc_fname c) re_ok (cc_src c) (cc_ast c) in
  let G := {| te_fields := cc_fields c; te_fname := cc_fname c; te_vars := [] |} in
  let exec_ok := match cc_ast c with Some e => negb (uses_float_text G e) | None => true end in
  let celm := indices_where (fun row => match row with (rho, _, co) =>
                 match cel_model c rho with Some m => negb (cobs_eqb m co) | None => false end end) (cc_rows c) 0 in
  let celn := length (filter (fun row => match row with (rho, _, _) =>
                 match cel_model c rho with Some _ => true | None => false end end) (cc_rows c)) in
  let gom := match cc_real c with
             | Some g => indices_where (fun row => match row with (rho, go, _) =>
                 match go_model c g rho with Some m => negb (gobs_eqb m go) | None => false end end) (cc_rows c) 0
             | None => []
             end in
  let gon := match cc_real c with
             | Some g => length (filter (fun row => match row with (rho, _, _) =>
                 match go_model c g rho with Some _ => true | None => false end end) (cc_rows c))
             | None => O
             end in
  {| cr_model_generates := match model with Some _ => true | None => false end;
     cr_cert := opt_gexpr_eqb (cc_real c) model;
     cr_fragment := match cc_ast c with Some e => proved_fragment re_ok (cc_fields c) (cc_fname c) e | None => false end;
     cr_structs_ok := forallb (fun row => match row with (rho, _, _) => struct_ok (cc_fields c) rho end) (cc_rows c);
     cr_cel_evaluated := if exec_ok then celn else O;
     cr_cel_mismatch := if exec_ok then celm else [];
     cr_go_evaluated := if exec_ok then gon else O;
     cr_go_mismatch := if exec_ok then gom else [];
     cr_spec_violation := indices_where (fun row => match row with (_, go, co) =>
                 match co, go with
                 | CelTrue, GoPass | CelFalse, GoFail => false
                 | CelTrue, _ | CelFalse, _ => true
                 | _, _ => false
                 end end) (cc_rows c) 0 |}.

Definition b2n' (b : bool) : nat := if b then 1%nat else 0%nat.
(* flat, easily parsed rendering *)
Definition report_row (i : nat) (r : celreport) :=
  (i, [b2n' (cr_model_generates r); b2n' (cr_cert r); b2n' (cr_fragment r); b2n' (cr_structs_ok r); cr_cel_evaluated r; cr_go_evaluated r],
   cr_cel_mismatch r, cr_go_mismatch r, cr_spec_violation r).

Definition case_re_ok (c : celcase) (p : bytes) : bool := match glookup (cc_res c) p with Some b => b | None => true end.

Lemma check_case_cert c :
  cr_cert (check_case c) = opt_gexpr_eqb (cc_real c) (cel_condition (cc_fname c) (case_re_ok c) (cc_src c) (cc_ast c)).
Proof. reflexivity. Qed.
Lemma check_case_fragment c :
  cr_fragment (check_case c) =
  match cc_ast c with Some e => proved_fragment (case_re_ok c) (cc_fields c) (cc_fname c) e | None => false end.
Proof. reflexivity. Qed.

(* If the kernel accepts the certificate of a corpus expression (emitted condition = model's condition) and the
   expression lies in the proved fragment, then for EVERY struct value of the declared field types the emitted
   condition evaluates to a boolean, and it is the negation of cel-go's verdict whenever cel-go yields one. *)
Theorem case_sound (c : celcase) re_match parse_float fmt_g parse_dur :
  (forall p, case_re_ok c p = true -> forall s, re_match p s <> None) ->
  (forall s z, parse_dur s = Some z -> in_i64 z = true) ->
  cr_cert (check_case c) = true -> cr_fragment (check_case c) = true ->
  exists e cond, cc_ast c = Some e /\ cc_real c = Some cond /\
    forall rho, struct_ok (cc_fields c) rho = true ->
    exists r, geval re_match parse_float fmt_g parse_dur (go_fields rho) [] cond = GV (GBool r) /\
              (forall b, ceval re_match parse_float fmt_g parse_dur (cel_env (cc_fname c) rho) e = Some (CV (VBool b)) -> r = negb b).
Proof.
  intros Hre Hdur Hcert Hfrag. rewrite check_case_cert in Hcert. rewrite check_case_fragment in Hfrag.
  destruct (cc_ast c) as [e|]; [|discriminate Hfrag].
  destruct (cc_real c) as [cond|]; [|discriminate Hcert].
  destruct (cel_condition (cc_fname c) (case_re_ok c) (cc_src c) (Some e)) as [m|] eqn:Em; [|discriminate Hcert].
  apply gexpr_eqb_eq in Hcert as <-.
  exists e, cond. split; [reflexivity|]. split; [reflexivity|]. intros rho Hrho.
  eapply cel_condition_sound; eassumption.
Qed.
