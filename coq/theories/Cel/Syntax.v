(* CEL expressions as cel-go's parser/checker delivers them (after macro expansion), and the
   fragment of Go expressions that internal/validator/rules/cel.go emits for them.
   The harness dumps cel-go's AST of every corpus expression into [cexpr] terms and go/parser's AST
   of every emitted condition into [gexpr] terms. *)
From GV Require Import Base.Bytes Base.GoFloat.

Definition ident := bytes.

Inductive cfun :=
| FAnd | FOr | FNot | FNeg | FAdd | FSub | FMul | FDiv | FMod
| FEq | FNe | FLt | FLe | FGt | FGe
| FTernary | FIn | FIndex | FNotStrictlyFalse
| FSize | FContains | FMatches | FStartsWith | FEndsWith
| FInt | FString | FDouble | FTimestamp | FDuration
| FOther (name : bytes).

Inductive cconst :=
| KBool (b : bool) | KInt (z : Z) | KUint (z : Z) | KDouble (bits : Z)
| KString (s : bytes) | KBytes (s : bytes) | KNull.

Inductive cexpr :=
| EIdent (x : ident)
| ESelect (e : cexpr) (f : ident) (test_only : bool)        (* e.f ; has(e.f) when test_only *)
| EConst (k : cconst)
| ECall1 (fn : cfun) (a : cexpr)                              (* !_  -_  size(x)  int(x) ... *)
| ECall2 (fn : cfun) (a b : cexpr)                            (* binary operators, @in, _[_], matches(s, re) *)
| ECall3 (fn : cfun) (a b c : cexpr)                          (* _?_:_ *)
| EMeth0 (fn : cfun) (target : cexpr)                         (* x.size() *)
| EMeth1 (fn : cfun) (target a : cexpr)                       (* x.startsWith(y) ... *)
| EList (es : list cexpr)
| EStruct                                                     (* map / message literal: not modelled *)
| ECompr (iter_var : ident) (range : cexpr) (accu_var : ident) (init cond step result : cexpr)
| EOther.                                                     (* any other call shape *)

Inductive ikind := I8 | I16 | I32 | I64 | IInt | U8 | U16 | U32 | U64 | UInt | IDur.

Inductive gbin := BAnd | BOr | BEq | BNe | BLt | BLe | BGt | BGe | BAdd | BSub | BMul | BDiv | BRem.

Inductive strfn := SContains | SHasPrefix | SHasSuffix.

Inductive gexpr :=
| GT                                            (* t *)
| GVar (x : ident)
| GSel (e : gexpr) (f : ident)                  (* e.f *)
| GLitInt (z : Z) | GLitFloat (bits : Z) | GLitStr (s : bytes) | GLitBool (b : bool) | GLitNil
| GParen (e : gexpr)
| GNot (e : gexpr) | GNeg (e : gexpr)
| GBin (op : gbin) (a b : gexpr)
| GLen (e : gexpr)
| GStrFn (f : strfn) (a b : gexpr)              (* strings.Contains(a, b) ... *)
| GMatch (pat s : gexpr)                        (* regexp.MustCompile(pat).MatchString(s) *)
| GMatchSafe (pat s : gexpr)                    (* func() bool { re, err := regexp.Compile(pat); if err != nil { return false }; return re.MatchString(s) }() *)
| GSprintV (e : gexpr)                          (* fmt.Sprintf("%v", e) *)
| GSlicesContains (l x : gexpr)
| GStrList (es : list gexpr)                    (* []string{...} *)
| GIfaceList (es : list gexpr)                  (* []interface{}{...} *)
| GAll (x : ident) (r c : gexpr)                (* func() bool { for _, x := range r { if !(c) { return false } }; return true }() *)
| GExists (x : ident) (r c : gexpr)             (* func() bool { for _, x := range r { if c { return true } }; return false }() *)
| GExistsOne (x : ident) (r c : gexpr)
| GFilter (x : ident) (r c : gexpr)             (* func() []interface{} { ... if c { result = append(result, x) } ... }() *)
| GMapC (x : ident) (r t : gexpr)
| GTern (c a b : gexpr)                         (* func() int { if c { return a }; return b }() *)
| GAtoi (e : gexpr)                             (* func() int { v, err := strconv.Atoi(e); if err != nil { return 0 }; return v }() *)
| GParseFloat (e : gexpr)                       (* ... strconv.ParseFloat(e, 64) ... *)
| GParseDur (e : gexpr)
| GParseTime (e : gexpr)
| GUnknown.                                     (* anything the translator of the harness does not recognise *)

(* decidable equality on gexpr: the test that validates the per-run certificates *)
Definition gbin_eqb (a b : gbin) : bool :=
  match a, b with
  | BAnd, BAnd | BOr, BOr | BEq, BEq | BNe, BNe | BLt, BLt | BLe, BLe | BGt, BGt | BGe, BGe
  | BAdd, BAdd | BSub, BSub | BMul, BMul | BDiv, BDiv | BRem, BRem => true
  | _, _ => false
  end.

Definition strfn_eqb (a b : strfn) : bool :=
  match a, b with
  | SContains, SContains | SHasPrefix, SHasPrefix | SHasSuffix, SHasSuffix => true
  | _, _ => false
  end.

Fixpoint gexpr_eqb (a b : gexpr) : bool :=
  let fix list_eqb (x y : list gexpr) : bool :=
    match x, y with
    | [], [] => true
    | i :: x', j :: y' => gexpr_eqb i j && list_eqb x' y'
    | _, _ => false
    end in
  match a, b with
  | GT, GT | GLitNil, GLitNil => true
  | GVar x, GVar y => bytes_eqb x y
  | GSel e f, GSel e' f' => gexpr_eqb e e' && bytes_eqb f f'
  | GLitInt x, GLitInt y | GLitFloat x, GLitFloat y => Z.eqb x y
  | GLitStr x, GLitStr y => bytes_eqb x y
  | GLitBool x, GLitBool y => Bool.eqb x y
  | GParen x, GParen y | GNot x, GNot y | GNeg x, GNeg y | GLen x, GLen y | GSprintV x, GSprintV y
  | GAtoi x, GAtoi y | GParseFloat x, GParseFloat y | GParseDur x, GParseDur y | GParseTime x, GParseTime y => gexpr_eqb x y
  | GBin o x y, GBin o' x' y' => gbin_eqb o o' && gexpr_eqb x x' && gexpr_eqb y y'
  | GStrFn f x y, GStrFn f' x' y' => strfn_eqb f f' && gexpr_eqb x x' && gexpr_eqb y y'
  | GMatch x y, GMatch x' y' | GMatchSafe x y, GMatchSafe x' y' | GSlicesContains x y, GSlicesContains x' y' => gexpr_eqb x x' && gexpr_eqb y y'
  | GStrList x, GStrList y | GIfaceList x, GIfaceList y => list_eqb x y
  | GAll v r c, GAll v' r' c' | GExists v r c, GExists v' r' c' | GExistsOne v r c, GExistsOne v' r' c'
  | GFilter v r c, GFilter v' r' c' | GMapC v r c, GMapC v' r' c' =>
      bytes_eqb v v' && gexpr_eqb r r' && gexpr_eqb c c'
  | GTern c x y, GTern c' x' y' => gexpr_eqb c c' && gexpr_eqb x x' && gexpr_eqb y y'
  | _, _ => false                                (* GUnknown equals nothing, not even itself *)
  end.

Definition opt_gexpr_eqb (a b : option gexpr) : bool :=
  match a, b with Some x, Some y => gexpr_eqb x y | _, _ => false end.

Lemma gbin_eqb_eq a b : gbin_eqb a b = true -> a = b.
Proof. destruct a, b; (reflexivity || discriminate). Qed.
Lemma strfn_eqb_eq a b : strfn_eqb a b = true -> a = b.
Proof. destruct a, b; (reflexivity || discriminate). Qed.

Fixpoint gexpr_eqb_eq (a : gexpr) : forall b, gexpr_eqb a b = true -> a = b.
Proof.
  assert (L : forall x y : list gexpr,
    (fix list_eqb (x y : list gexpr) : bool :=
       match x, y with
       | [], [] => true
       | i :: x', j :: y' => gexpr_eqb i j && list_eqb x' y'
       | _, _ => false
       end) x y = true -> x = y).
  { induction x as [|i x IH]; intros [|j y] H; try discriminate; [reflexivity|].
    apply andb_true_iff in H as [H1 H2]. f_equal; [apply gexpr_eqb_eq; exact H1 | apply IH; exact H2]. }
  pose proof (fun x y => proj1 (bytes_eqb_eq x y)) as HB. pose proof (fun x y => proj1 (Z.eqb_eq x y)) as HZ.
  (* Reduced to its match on b, the test leaves the constructor of a alone (and nothing for GUnknown).  There it is
     the conjunction of the tests of the components, and each of those reflects equality. *)
  destruct a; intros c H; cbn in H; destruct c; try discriminate H; try reflexivity.
  all: repeat (apply andb_true_iff in H as [H ?]); f_equal; auto using gbin_eqb_eq, strfn_eqb_eq, Bool.eqb_prop.
Qed.
