(* IsValidAlpha and IsNumeric against the documented languages: the byte test of the first and the rune test of the
   second (ASCII-only, so a test on bytes) are the byte classes is_letter and is_digit. *)
From GV Require Import Base.Bytes Base.Utf8 Helpers.Alnum.
From Coq Require Import ZifyN ZifyNat ZifyBool.

(* documented languages: alpha = only ASCII letters (empty allowed); numeric = one or more ASCII digits *)
Definition ascii_letter (c : byte) : Prop := is_letter c = true.
Definition ascii_digit (c : byte) : Prop := is_digit c = true.

(* De Morgan on the comparisons; the four bounds are the same bytes on both sides *)
Lemma alpha_byte : forall c,
  Bool.eqb (negb ((blt c c_a || blt c_z c) && (blt c c_A || blt c_Z c))) (is_letter c) = true.
Proof. intro c. unfold is_letter, is_lower, is_upper, in_rng, ble, blt. lia. Qed.

Theorem IsValidAlpha_exact s : IsValidAlpha s = true <-> Forall ascii_letter s.
Proof.
  unfold IsValidAlpha. rewrite (forallb_ext _ is_letter) by (intro c; apply Bool.eqb_prop, alpha_byte).
  rewrite forallb_forall, Forall_forall. reflexivity.
Qed.

Definition digit_rune (ch : N) : bool := negb ((ch <? 48)%N || (57 <? ch)%N).

Lemma digit_rune_ascii_only : ascii_only digit_rune.
Proof. intros r Hr. unfold digit_rune. lia. Qed.

Lemma digit_byte : forall c, Bool.eqb (digit_rune (b2n c)) (is_digit c) = true.
Proof.
  intro c. unfold digit_rune, is_digit, in_rng, ble.
  change (b2n c_0) with 48%N. change (b2n c_9) with 57%N. lia.
Qed.

Theorem IsNumeric_exact s : IsNumeric s = true <-> (s <> [] /\ Forall ascii_digit s).
Proof.
  unfold IsNumeric. rewrite forallb_runes by apply digit_rune_ascii_only.
  rewrite (forallb_ext _ is_digit) by (intro c; apply Bool.eqb_prop, digit_byte).
  unfold ascii_digit. rewrite Forall_forall, <- forallb_forall.
  destruct (forallb is_digit s), s; cbn; intuition congruence.
Qed.

(* a non-ASCII byte anywhere makes IsNumeric reject (full-width digits, invalid UTF-8) *)
Theorem IsNumeric_non_ascii s c : In c s -> (128 <= b2n c)%N -> IsNumeric s = false.
Proof.
  intros I Hc. destruct (IsNumeric s) eqn:E; [|reflexivity]. apply IsNumeric_exact in E as [_ A].
  rewrite Forall_forall in A. specialize (A _ I). unfold ascii_digit, is_digit, in_rng, ble in A.
  change (b2n c_9) with 57%N in A. lia.
Qed.
