(* IsValidURL against url_spec.  findSchemeEnd returns the position of the first ':' exactly when what precedes it is
   one byte, which is not looked at, followed by scheme characters; on an input scheme ++ ':' :: rest the function
   is the boolean [decided], which is then related to the specification through the two scheme tables. *)
From GV Require Import Base.Bytes Base.StrOps Helpers.Url Helpers.UrlSpec.

Lemma mem_In x l : mem x l = true <-> In x l.
Proof. apply existsb_bytes_eqb. Qed.

Lemma incl_b (a b : list bytes) : forallb (fun x => mem x b) a = true -> forall x, In x a -> In x b.
Proof. intros H x Hx. rewrite forallb_forall in H. apply mem_In. apply H. exact Hx. Qed.

Lemma tables_valid x : In x validSchemes <-> In x (host_schemes ++ opaque_schemes).
Proof. split; apply incl_b; vm_compute; reflexivity. Qed.

(* the same list, written twice *)
Lemma tables_nohost x : In x schemesNotRequiringHost <-> In x opaque_schemes.
Proof. reflexivity. Qed.

(* every supported scheme is non-empty, made of scheme characters, without ':' *)
Definition scheme_tail_ok (c : byte) : bool := isValidSchemeChar c && negb (beq c c_colon).
Definition good_scheme (sc : bytes) : bool :=
  match sc with [] => false | _ :: t => forallb scheme_tail_ok t end.

Lemma supported_good sc : In sc (host_schemes ++ opaque_schemes) -> good_scheme sc = true.
Proof.
  assert (G : forallb good_scheme (host_schemes ++ opaque_schemes) = true) by (vm_compute; reflexivity).
  rewrite forallb_forall in G. apply G.
Qed.

Lemma fse_found p t i : forallb scheme_tail_ok p = true -> fse (p ++ c_colon :: t) i = Z.of_nat (i + length p).
Proof.
  revert i. induction p as [|c p IH]; intros i H.
  - cbn [app fse length]. rewrite beq_refl. lia.
  - apply andb_true_iff in H as [Hc Hp].
    apply andb_true_iff in Hc as [H1 H2]. apply negb_true_iff in H2.
    cbn [app fse]. rewrite H2, H1. rewrite IH by exact Hp. simpl. lia.
Qed.

Lemma fse_inv r i : fse r i = (-1)%Z \/ exists p t, r = p ++ c_colon :: t /\ forallb scheme_tail_ok p = true.
Proof.
  revert i. induction r as [|c r IH]; intro i; [left; reflexivity|].
  cbn [fse]. destruct (beq c c_colon) eqn:E.
  - right. apply beq_eq in E as ->. exists [], r. split; reflexivity.
  - destruct (isValidSchemeChar c) eqn:V; [|left; reflexivity].
    destruct (IH (S i)) as [H|(p & t & -> & Hp)]; [left; exact H|].
    right. exists (c :: p), t. split; [reflexivity|].
    cbn [forallb]. unfold scheme_tail_ok at 1. rewrite V, E. exact Hp.
Qed.

Lemma findSchemeEnd_found sc t :
  good_scheme sc = true -> findSchemeEnd (sc ++ c_colon :: t) = Z.of_nat (length sc).
Proof. destruct sc as [|a p]; [discriminate|]. apply fse_found. Qed.

Lemma findSchemeEnd_inv s :
  findSchemeEnd s = (-1)%Z \/ exists sc t, s = sc ++ c_colon :: t /\ good_scheme sc = true.
Proof.
  destruct s as [|a r]; [left; reflexivity|].
  destruct (fse_inv r 1) as [H|(p & t & -> & Hp)]; [left; exact H|].
  right. exists (a :: p), t. split; [reflexivity|exact Hp].
Qed.

Definition host_b (rest : bytes) : bool :=
  match rest with
  | a :: b :: h :: _ => beq a c_slash && beq b c_slash && isValidHostStart h
  | _ => false
  end.

Lemma withHost_pure sc rest :
  validateSchemeWithHost (sc ++ c_colon :: rest) (length sc) = Ok (host_b rest).
Proof.
  unfold validateSchemeWithHost. rewrite app_length, !leb_add_l, !idx_app_right.
  destruct rest as [|a [|b [|h t]]]; try reflexivity. cbn [length Nat.leb idx nth_error bind host_b].
  destruct (beq a c_slash), (beq b c_slash); reflexivity.
Qed.

Lemma withoutHost_pure sc rest :
  validateSchemeWithoutHost (sc ++ c_colon :: rest) (length sc) = negb (is_empty rest).
Proof.
  unfold validateSchemeWithoutHost. rewrite app_length, leb_add_l. destruct rest; reflexivity.
Qed.

Definition decided (sc rest : bytes) : bool :=
  mem sc validSchemes && negb (hasInvalidChars (sc ++ c_colon :: rest)) &&
  (if mem sc schemesNotRequiringHost then negb (is_empty rest) else host_b rest).

Lemma IsValidURL_decomposed sc t :
  good_scheme sc = true -> IsValidURL (sc ++ c_colon :: t) = Ok (decided sc t).
Proof.
  intro G. unfold IsValidURL. rewrite (findSchemeEnd_found sc t G).
  destruct sc as [|a p]; [discriminate G|].
  change (a :: p ++ c_colon :: t) with ((a :: p) ++ c_colon :: t). change (S (length p)) with (length (a :: p)).
  rewrite Nat2Z.id, slice_to_ok, firstn_length_app by (rewrite app_length; lia). cbn [bind].
  unfold decided. destruct (mem (a :: p) validSchemes); [|reflexivity].
  destruct (hasInvalidChars ((a :: p) ++ c_colon :: t)); [reflexivity|].
  destruct (mem (a :: p) schemesNotRequiringHost); [rewrite withoutHost_pure; reflexivity|apply withHost_pure].
Qed.

Theorem IsValidURL_total s : exists b, IsValidURL s = Ok b.
Proof.
  destruct (findSchemeEnd_inv s) as [H|(sc & t & -> & G)].
  - exists false. unfold IsValidURL. rewrite H. destruct (is_empty s); reflexivity.
  - eexists. apply IsValidURL_decomposed, G.
Qed.

Lemma forbidden_same c : invalid_char c = forbidden_b c.
Proof. reflexivity. Qed.

Lemma host_start_same c : isValidHostStart c = host_start_b c.
Proof. reflexivity. Qed.

Lemma no_invalid_iff s : hasInvalidChars s = false <-> Forall (fun c => forbidden_b c = false) s.
Proof.
  unfold hasInvalidChars. induction s as [|c s IH]; cbn [existsb]; [split; constructor|].
  rewrite orb_false_iff, Forall_cons_iff, IH, forbidden_same. reflexivity.
Qed.

Lemma host_b_iff rest :
  host_b rest = true <-> exists h t, rest = c_slash :: c_slash :: h :: t /\ host_start_b h = true.
Proof.
  destruct rest as [|x [|y [|h t]]]; cbn [host_b]; try (split; [discriminate|intros (? & ? & [=] & _)]).
  rewrite !andb_true_iff, !beq_eq, host_start_same. split.
  - intros [[-> ->] H]. eauto.
  - intros (? & ? & [= -> -> -> ->] & H). auto.
Qed.

Lemma decided_iff sc rest :
  decided sc rest = true <->
  Forall (fun c => forbidden_b c = false) (sc ++ c_colon :: rest) /\
  ((In sc host_schemes /\ exists h t, rest = c_slash :: c_slash :: h :: t /\ host_start_b h = true) \/
   (In sc opaque_schemes /\ rest <> [])).
Proof.
  unfold decided. rewrite !andb_true_iff, negb_true_iff, no_invalid_iff, mem_In, tables_valid, in_app_iff.
  destruct (mem sc schemesNotRequiringHost) eqn:O.
  - apply mem_In, tables_nohost in O.
    (* an opaque scheme takes any rest but the empty one, and a rest that begins with a host is not empty *)
    destruct rest; cbn [is_empty negb]; [|intuition congruence].
    split; [intuition congruence|]. intros [_ [(_ & h & t & E & _)|[_ N]]]; [discriminate E|destruct N; reflexivity].
  - assert (~ In sc opaque_schemes) by (rewrite <- tables_nohost, <- mem_In; congruence).
    rewrite host_b_iff. tauto.
Qed.

Theorem IsValidURL_exact s : IsValidURL s = Ok true <-> url_spec s.
Proof.
  split.
  - intro H. destruct (findSchemeEnd_inv s) as [F|(sc & t & -> & G)].
    { unfold IsValidURL in H. rewrite F in H. destruct (is_empty s); discriminate H. }
    rewrite (IsValidURL_decomposed sc t G) in H. apply Ok_inj, decided_iff in H as [I D].
    exists sc, t. auto.
  - intros (sc & rest & -> & I & D).
    rewrite IsValidURL_decomposed; [f_equal; apply decided_iff; auto|].
    apply supported_good, in_or_app. tauto.
Qed.
