(* C13. Under the length test every index the code uses is in range, so no [idx] panics and
   the recognizer is a boolean function [uuid_b] of the length and the bytes [g s i].
   Each test [uuid_b] makes on a byte gives the same answer on its case-folded form, hence
   validity depends on [map hexfold s] only; exactness is read off [uuid_b] test by test. *)
From GV Require Import Base.Bytes Helpers.Uuid Helpers.UuidSpec.

Definition g (s : bytes) (i : nat) : byte := nth i s x00.

Lemma nth_error_g s i : i < length s -> nth_error s i = Some (g s i).
Proof. apply nth_error_nth'. Qed.

Lemma idx_g s i : i < length s -> idx s i = Ok (g s i).
Proof. intro H. unfold idx. rewrite nth_error_g by exact H. reflexivity. Qed.

Lemma at_is_pure s i c : i < length s -> at_is s i c = Ok (beq (g s i) c).
Proof. intro H. unfold at_is. rewrite idx_g by exact H. reflexivity. Qed.

Lemma all_at_pure p s is :
  (forall i, In i is -> i < length s) ->
  all_at p s is = Ok (forallb (fun i => is_hyphen_pos i || p (g s i)) is).
Proof.
  induction is as [|i r IH]; intro H; cbn [all_at forallb]; [reflexivity|].
  rewrite IH by (intros j Hj; apply H; right; exact Hj).
  destruct (is_hyphen_pos i); [reflexivity|].
  rewrite idx_g by (apply H; left; reflexivity). cbn [bind orb].
  destruct (p (g s i)); reflexivity.
Qed.

Definition all_b (p : byte -> bool) s := forallb (fun i => is_hyphen_pos i || p (g s i)) (seq 0 36).
Definition hy_b s := forallb (fun i => beq (g s i) c_hyphen) hyphen_positions.
Definition vv_b s :=
  bytes_eqb s nil_uuid || all_b is_f s ||
  (negb (blt (g s 14) c_1 || blt c_5 (g s 14)) && is_variant (g s 19)).
Definition uuid_b s := Nat.eqb (length s) 36 && hy_b s && all_b isValidHexChar s && vv_b s.

Lemma all_at_36 p s : length s = 36 -> all_at p s (seq 0 36) = Ok (all_b p s).
Proof. intro L. apply all_at_pure. intros i Hi. apply in_seq in Hi. lia. Qed.

Lemma hasValidHyphens_pure s : length s = 36 -> hasValidHyphens s = Ok (hy_b s).
Proof.
  intro L. unfold hasValidHyphens. rewrite !at_is_pure by lia. rewrite !andr_Ok.
  unfold hy_b. cbn [forallb hyphen_positions]. rewrite andb_true_r. reflexivity.
Qed.

Lemma versionAndVariant_pure s : length s = 36 -> isValidUUIDVersionAndVariant s = Ok (vv_b s).
Proof.
  intro L. unfold isValidUUIDVersionAndVariant, isMaxUUID, vv_b.
  rewrite all_at_36, !idx_g by lia. cbn [bind].
  destruct (bytes_eqb s nil_uuid), (all_b is_f s), (blt (g s 14) c_1 || blt c_5 (g s 14)); reflexivity.
Qed.

Lemma IsValidUUID_pure s : IsValidUUID s = Ok (uuid_b s).
Proof.
  unfold IsValidUUID, uuid_b, hasValidHexChars.
  destruct (Nat.eqb_spec (length s) 36) as [L|_]; [|reflexivity].
  rewrite hasValidHyphens_pure, all_at_36, versionAndVariant_pure by exact L.
  destruct (hy_b s), (all_b isValidHexChar s); reflexivity.
Qed.

Theorem IsValidUUID_total s : exists b, IsValidUUID s = Ok b.
Proof. eexists. apply IsValidUUID_pure. Qed.

Lemma hexfold_eq_b (k : byte) (Hk : hexfold k = k) (Hk2 : forallb (fun a => negb (beq (hexfold a) k) || beq a k || in_rng c_A c_F a) all_bytes = true) :
  True.
Proof. exact I. Qed.

(* [hexfold] moves the six letters A-F only, so a test that cannot tell these from their
   folded forms cannot tell any byte from its folded form; no test of the recognizer can *)
Lemma hexfold_blind (P : byte -> bool) :
  forallb (fun a => Bool.eqb (P (hexfold a)) (P a)) (bs "ABCDEF") = true ->
  forall a, P (hexfold a) = P a.
Proof.
  intros H a. rewrite forallb_forall in H.
  assert (E : beq (hexfold a) a || existsb (beq a) (bs "ABCDEF") = true)
    by (revert a; apply every_byte_spec; vm_compute; reflexivity).
  apply orb_true_iff in E as [E|E].
  - apply beq_eq in E. rewrite E. reflexivity.
  - apply existsb_exists in E as (x & Hx & E). apply beq_eq in E. subst x.
    apply Bool.eqb_prop, H, Hx.
Qed.

Lemma hyphen_blind : forall a, beq (hexfold a) c_hyphen = beq a c_hyphen.
Proof. apply (hexfold_blind (fun a => beq a c_hyphen)). reflexivity. Qed.

Lemma zero_blind : forall a, beq (hexfold a) c_0 = beq a c_0.
Proof. apply (hexfold_blind (fun a => beq a c_0)). reflexivity. Qed.

Lemma hex_blind : forall a, isValidHexChar (hexfold a) = isValidHexChar a.
Proof. apply hexfold_blind. reflexivity. Qed.

Lemma is_f_blind : forall a, is_f (hexfold a) = is_f a.
Proof. apply hexfold_blind. reflexivity. Qed.

Lemma variant_blind : forall a, is_variant (hexfold a) = is_variant a.
Proof. apply hexfold_blind. reflexivity. Qed.

Lemma version_blind : forall a, blt (hexfold a) c_1 || blt c_5 (hexfold a) = blt a c_1 || blt c_5 a.
Proof. apply (hexfold_blind (fun a => blt a c_1 || blt c_5 a)). reflexivity. Qed.

Lemma g_hexfold s i : g (map hexfold s) i = hexfold (g s i).
Proof. exact (map_nth hexfold s x00 i). Qed.

Lemma all_b_hexfold p s : (forall a, p (hexfold a) = p a) -> all_b p (map hexfold s) = all_b p s.
Proof. intro H. apply forallb_ext. intro i. rewrite g_hexfold, H. reflexivity. Qed.

Lemma hy_b_hexfold s : hy_b (map hexfold s) = hy_b s.
Proof. apply forallb_ext. intro i. rewrite g_hexfold. apply hyphen_blind. Qed.

(* [nil_uuid] and [max_uuid] are the 8-4-4-4-12 pattern filled with '0' and with 'f' *)
Definition fill (k : byte) (i : nat) : byte := if is_hyphen_pos i then c_hyphen else k.
Definition filled (k : byte) : bytes := map (fill k) (seq 0 36).

Lemma g_filled k i : i < 36 -> g (filled k) i = fill k i.
Proof.
  intro Hi. unfold g, filled.
  rewrite (nth_indep _ x00 (fill k 0)) by (rewrite map_length, seq_length; exact Hi).
  rewrite map_nth, seq_nth by exact Hi. reflexivity.
Qed.

Lemma nil_hexfold s : bytes_eqb (map hexfold s) nil_uuid = bytes_eqb s nil_uuid.
Proof.
  apply bytes_eqb_map. change nil_uuid with (filled c_0).
  apply Forall_map, Forall_forall. intros i _. unfold fill.
  destruct (is_hyphen_pos i); [exact hyphen_blind | exact zero_blind].
Qed.

Lemma same_case_map s s' : same_upto_hex_case s s' <-> map hexfold s = map hexfold s'.
Proof.
  split.
  - induction 1; simpl; congruence.
  - revert s'. induction s as [|a s IH]; intros [|b s'] [=]; constructor; [assumption|].
    apply IH. assumption.
Qed.

Theorem IsValidUUID_hexfold s : IsValidUUID (map hexfold s) = IsValidUUID s.
Proof.
  rewrite !IsValidUUID_pure. unfold uuid_b, vv_b.
  rewrite map_length, hy_b_hexfold, nil_hexfold, !g_hexfold, version_blind, variant_blind.
  rewrite (all_b_hexfold _ s hex_blind), (all_b_hexfold _ s is_f_blind). reflexivity.
Qed.

Theorem IsValidUUID_case_insensitive s s' :
  same_upto_hex_case s s' -> IsValidUUID s = IsValidUUID s'.
Proof.
  intro H. apply same_case_map in H.
  rewrite <- (IsValidUUID_hexfold s), H. apply IsValidUUID_hexfold.
Qed.

Lemma hex_iff c : isValidHexChar c = true <-> hex_digit c.
Proof.
  unfold isValidHexChar, hex_digit, in_rng, ble.
  rewrite !orb_true_iff, !andb_true_iff, !N.leb_le. tauto.
Qed.

Lemma version_iff v : negb (blt v c_1 || blt c_5 v) = true <-> (b2n c_1 <= b2n v <= b2n c_5)%N.
Proof.
  unfold blt. rewrite negb_true_iff, orb_false_iff, !N.ltb_ge. tauto.
Qed.

Lemma is_f_fold : forall a, is_f a = beq (hexfold a) c_f.
Proof. apply byte_ext. vm_compute. reflexivity. Qed.

Lemma is_variant_fold : forall r, is_variant r =
  beq (hexfold r) c_8 || beq (hexfold r) c_9 || beq (hexfold r) c_a || beq (hexfold r) c_b.
Proof. apply byte_ext. vm_compute. reflexivity. Qed.

Lemma variant_iff r : is_variant r = true <->
  (hexfold r = c_8 \/ hexfold r = c_9 \/ hexfold r = c_a \/ hexfold r = c_b).
Proof. rewrite is_variant_fold, !orb_true_iff, !beq_eq. tauto. Qed.

Lemma hyphen_pos_In i : is_hyphen_pos i = true <-> In i hyphen_positions.
Proof.
  unfold is_hyphen_pos. rewrite !orb_true_iff, !Nat.eqb_eq. simpl.
  intuition congruence.
Qed.

Lemma hy_b_iff s : hy_b s = true <-> forall i, In i hyphen_positions -> g s i = c_hyphen.
Proof. unfold hy_b. rewrite forallb_forall. split; intros H i Hi; apply beq_eq, H, Hi. Qed.

Lemma all_b_iff p s :
  all_b p s = true <-> forall i, i < 36 -> is_hyphen_pos i = false -> p (g s i) = true.
Proof.
  unfold all_b. rewrite forallb_forall. split; intros H i Hi.
  - intro Hh. specialize (H i). rewrite in_seq, Hh in H. apply H. lia.
  - apply in_seq in Hi. destruct (is_hyphen_pos i) eqn:Hh; [reflexivity|]. apply H; [lia|exact Hh].
Qed.

Lemma shape_iff s :
  uuid_shape s <-> length s = 36 /\ hy_b s = true /\ all_b isValidHexChar s = true.
Proof.
  rewrite hy_b_iff, all_b_iff.
  split; intros [L H]; (split; [exact L|]).
  - split.
    + intros i Hi. eapply H; [apply nth_error_g|exact Hi].
      simpl in Hi. lia.
    + intros i Hi Hh. apply hex_iff. eapply H; [apply nth_error_g; lia|].
      rewrite <- hyphen_pos_In. congruence.
  - destruct H as [Hy Hx]. intros i c E.
    assert (Hi : i < length s) by (apply nth_error_Some; congruence).
    rewrite nth_error_g in E by exact Hi. injection E as <-. split; [apply Hy|].
    intro N. apply hex_iff, Hx; [lia|]. apply not_true_is_false. rewrite hyphen_pos_In. exact N.
Qed.

Lemma map_hexfold_eq s t :
  map hexfold s = t <-> length s = length t /\ forall i, i < length t -> hexfold (g s i) = g t i.
Proof.
  split.
  - intros <-. split; [symmetry; apply map_length|]. intros i _. symmetry. apply g_hexfold.
  - intros [L H]. apply nth_ext with (d := x00) (d' := x00); rewrite map_length; [exact L|].
    intros i Hi. fold (g (map hexfold s) i) (g t i). rewrite g_hexfold. apply H. lia.
Qed.

(* under the hyphen test, "every other byte is f or F" <-> "case-folded, it is the max UUID" *)
Lemma max_iff s : length s = 36 -> hy_b s = true -> (all_b is_f s = true <-> map hexfold s = max_uuid).
Proof.
  intros L Hy. rewrite hy_b_iff in Hy.
  change max_uuid with (filled c_f). rewrite map_hexfold_eq, all_b_iff.
  split.
  - intro H. split; [exact L|]. intros i Hi. rewrite g_filled by exact Hi. unfold fill.
    destruct (is_hyphen_pos i) eqn:Hh.
    + rewrite Hy by (apply hyphen_pos_In, Hh). reflexivity.
    + apply beq_eq. rewrite <- is_f_fold. apply H; assumption.
  - intros [_ H] i Hi Hh. rewrite is_f_fold.
    rewrite H, g_filled by exact Hi. unfold fill. rewrite Hh. reflexivity.
Qed.

Lemma fields_iff s : length s = 36 ->
  (negb (blt (g s 14) c_1 || blt c_5 (g s 14)) && is_variant (g s 19) = true <-> rfc4122_fields s).
Proof.
  intro L. unfold rfc4122_fields.
  rewrite andb_true_iff, version_iff, variant_iff, !nth_error_g by lia. split.
  - intros [Hv Hr]. exists (g s 14), (g s 19). auto.
  - intros (v & r & [= <-] & [= <-] & H). exact H.
Qed.

Lemma vv_iff s : length s = 36 -> hy_b s = true ->
  (vv_b s = true <-> s = nil_uuid \/ map hexfold s = max_uuid \/ rfc4122_fields s).
Proof.
  intros L Hy. unfold vv_b.
  rewrite !orb_true_iff, bytes_eqb_eq, max_iff, fields_iff by assumption. tauto.
Qed.

Theorem IsValidUUID_exact s : IsValidUUID s = Ok true <-> uuid_spec s.
Proof.
  rewrite IsValidUUID_pure. unfold uuid_b, uuid_spec. rewrite shape_iff. split.
  - intros [= H]. rewrite !andb_true_iff, Nat.eqb_eq in H. destruct H as [[[L Hy] Hx] Hv].
    apply vv_iff in Hv; tauto.
  - intros [(L & Hy & Hx) Hv]. apply vv_iff in Hv; [|assumption..].
    rewrite L, Hy, Hx, Hv. reflexivity.
Qed.
