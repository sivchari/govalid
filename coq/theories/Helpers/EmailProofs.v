(* IsValidEmail against email_spec.  Each Go helper is first shown equal to a boolean function of the bytes that
   cannot panic (the _pure lemmas: the loops over runes become loops over bytes because the character tests reject
   every rune above 127, and the indexings are in range).  The boolean functions are then related to the
   specification, the pieces of split_on c_dot standing for its atoms and labels. *)
From GV Require Import Base.Bytes Base.Utf8 Base.StrOps Helpers.Email Helpers.EmailSpec.
From Coq Require Import ZifyN ZifyNat ZifyBool.

Definition dotok (c : byte) : bool := atext_b c || beq c c_dot.

Lemma local_char_byte c : isValidLocalChar (b2n c) = dotok c.
Proof. revert c. apply byte_ext. vm_compute. reflexivity. Qed.

(* the rune ranges are the byte ranges of is_letter and is_digit, up to computing the bounds *)
Lemma domain_char_byte c : isValidDomainChar (b2n c) = ldh_b c.
Proof. unfold ldh_b. rewrite <- (b2n_eqb c c_hyphen). reflexivity. Qed.

Lemma existsb_eqb_above r b tab :
  forallb (fun k => N.ltb k b) tab = true -> (b <= r)%N -> existsb (N.eqb r) tab = false.
Proof.
  intros H Hr. induction tab as [|k tab IH]; [reflexivity|]. cbn [forallb existsb] in *.
  apply andb_true_iff in H as [Hk H]. rewrite (IH H). lia.
Qed.

Lemma rune_in_hi lo hi r : (hi < 128 -> 128 <= r -> rune_in lo hi r = false)%N.
Proof. unfold rune_in. lia. Qed.

Lemma local_char_ascii_only : ascii_only isValidLocalChar.
Proof.
  intros r Hr. unfold isValidLocalChar. rewrite !rune_in_hi by lia.
  apply (existsb_eqb_above r 128); [reflexivity|exact Hr].
Qed.

Lemma domain_char_ascii_only : ascii_only isValidDomainChar.
Proof. intros r Hr. unfold isValidDomainChar. rewrite !rune_in_hi by lia. lia. Qed.

Lemma local_chars_pure l : isValidLocalPartChars l = forallb dotok l.
Proof.
  unfold isValidLocalPartChars. rewrite forallb_runes by apply local_char_ascii_only.
  apply forallb_ext, local_char_byte.
Qed.

Lemma domain_chars_pure l : isValidDomainLabelChars l = forallb ldh_b l.
Proof.
  unfold isValidDomainLabelChars. rewrite forallb_runes by apply domain_char_ascii_only.
  apply forallb_ext, domain_char_byte.
Qed.

Definition first_is (s : bytes) (c : byte) : bool := match s with a :: _ => beq a c | [] => false end.
Definition last_is (s : bytes) (c : byte) : bool := beq (last s x00) c.

Lemma first_or_last_pure s c : s <> [] -> first_or_last_is s c = Ok (first_is s c || last_is s c).
Proof.
  intro N. unfold first_or_last_is. rewrite idx_last by exact N.
  destruct s as [|a s]; [congruence|]. exact (orr_Ok _ _).
Qed.

Definition fmt_b (l : bytes) : bool :=
  negb (is_empty l) && negb (first_is l c_dot) && negb (last_is l c_dot) && negb (has_dotdot l)
  && forallb dotok l.

Definition local_b (l : bytes) : bool := Nat.leb (length l) 64 && fmt_b l.

Lemma isValidLocalPart_pure l : isValidLocalPart l = Ok (local_b l).
Proof.
  unfold isValidLocalPart, local_b, fmt_b. rewrite Nat.ltb_antisym.
  destruct l as [|a l]; [reflexivity|]. destruct (Nat.leb (length (a :: l)) 64); [|reflexivity].
  unfold isValidLocalPartFormat. rewrite first_or_last_pure, local_chars_pure by discriminate.
  destruct (first_is (a :: l) c_dot); [reflexivity|].
  destruct (last_is (a :: l) c_dot); [reflexivity|].
  destruct (has_dotdot (a :: l)); reflexivity.
Qed.

Definition atom_b (a : bytes) : bool := negb (is_empty a) && forallb atext_b a.
Definition atoms_b (l : bytes) : bool := forallb atom_b (split_on c_dot l).

Lemma atoms_b_nil : atoms_b [] = false.
Proof. reflexivity. Qed.

Lemma fmt_b_nil : fmt_b [] = false.
Proof. reflexivity. Qed.

(* the atoms are non-empty exactly when the four format tests pass, and made of atext exactly when
   every byte is atext or a dot *)
Lemma atoms_fmt l : atoms_b l = fmt_b l.
Proof.
  unfold atoms_b, atom_b.
  rewrite forallb_andb, (split_nonempty_pieces c_dot l x00), forallb_split.
  (* has_dotdot is has_double c_dot; on a cons, first_is and last_is are the tests on hd and last *)
  destruct l; reflexivity.
Qed.

Lemma atom_b_iff a : atom_b a = true <-> (a <> [] /\ Forall atext a).
Proof.
  unfold atom_b. rewrite andb_true_iff, (forallb_Forall atext_b atext) by reflexivity.
  destruct a; cbn [is_empty negb]; split; intros [H1 H2]; split; congruence.
Qed.

Lemma atom_no_dot a : a <> [] /\ Forall atext a -> ~ In c_dot a.
Proof. intros [_ F] I. rewrite Forall_forall in F. discriminate (F _ I). Qed.

Lemma local_b_iff l : local_b l = true <-> local_ok l.
Proof.
  unfold local_b. rewrite andb_true_iff, <- atoms_fmt, Nat.leb_le. unfold atoms_b. split.
  - intros [L A]. split.
    + split; [destruct l; [discriminate A|simpl; lia]|exact L].
    + exists (split_on c_dot l). split; [apply split_on_nonempty|]. split; [symmetry; apply join_split|].
      apply (forallb_Forall _ _ _ atom_b_iff), A.
  - intros [[_ L] (atoms & N & -> & F)]. split; [exact L|].
    rewrite (split_join c_dot atoms N (Forall_impl _ atom_no_dot F)). apply (forallb_Forall _ _ _ atom_b_iff), F.
Qed.

Definition label_b (l : bytes) : bool :=
  negb (is_empty l) && Nat.leb (length l) 63 && negb (first_is l c_hyphen) && negb (last_is l c_hyphen)
  && forallb ldh_b l.

Lemma isValidDomainLabel_pure l : isValidDomainLabel l = Ok (label_b l).
Proof.
  unfold isValidDomainLabel, label_b. rewrite Nat.ltb_antisym.
  destruct l as [|a l]; [reflexivity|]. destruct (Nat.leb (length (a :: l)) 63); [|reflexivity].
  rewrite first_or_last_pure, domain_chars_pure by discriminate.
  destruct (first_is (a :: l) c_hyphen); [reflexivity|].
  destruct (last_is (a :: l) c_hyphen); reflexivity.
Qed.

Lemma label_b_nonempty l : label_b l = true -> is_empty l = false.
Proof. destruct l; [discriminate|reflexivity]. Qed.

Lemma all_labels_pure ls : all_labels ls = Ok (forallb label_b ls).
Proof.
  induction ls as [|l t IH]; [reflexivity|]. cbn [all_labels forallb].
  destruct (is_empty l) eqn:E.
  - destruct l; [reflexivity|discriminate].
  - rewrite isValidDomainLabel_pure. destruct (label_b l); [exact IH|reflexivity].
Qed.

Definition labels_b (d : bytes) : bool :=
  forallb label_b (split_on c_dot d) && Nat.leb 2 (length (split_on c_dot d)).

Lemma validateDomainLabels_pure d : validateDomainLabels d = Ok (labels_b d).
Proof.
  unfold validateDomainLabels, labels_b. rewrite all_labels_pure.
  destruct (forallb label_b (split_on c_dot d)); reflexivity.
Qed.

Lemma existsb_runes (q : N -> bool) : ascii_only q -> forall s, existsb q (runes s) = existsb (fun b => q (b2n b)) s.
Proof.
  intros Hq s. rewrite (byte_hits_existsb q 0 s). unfold runes, runes_pos.
  rewrite <- (rune_hits q Hq (length s) 0 s) by lia.
  induction (runes_from (length s) 0 s) as [|x l IH]; [reflexivity|].
  cbn [map existsb filter]. destruct (q (snd x)); [reflexivity|]. exact IH.
Qed.

Definition domain_b (d : bytes) : bool :=
  negb (is_empty d) && Nat.leb (length d) 253 && existsb (fun c => beq c c_dot) d
  && negb ((first_is d c_dot || last_is d c_dot) || (first_is d c_hyphen || last_is d c_hyphen))
  && labels_b d.

Lemma dot_ascii_only : ascii_only (N.eqb 46).
Proof. intros r Hr. lia. Qed.

Lemma isValidDomainPart_pure d : isValidDomainPart d = Ok (domain_b d).
Proof.
  unfold isValidDomainPart, domain_b. rewrite Nat.ltb_antisym.
  destruct d as [|a d]; [reflexivity|]. destruct (Nat.leb (length (a :: d)) 253); [|reflexivity].
  rewrite existsb_runes by apply dot_ascii_only.
  rewrite (existsb_ext _ (fun c => beq c c_dot)) by (intro c; rewrite N.eqb_sym; apply (b2n_eqb c c_dot)).
  destruct (existsb (fun c => beq c c_dot) (a :: d)); [|reflexivity].
  rewrite !first_or_last_pure by discriminate.
  destruct (first_is (a :: d) c_dot || last_is (a :: d) c_dot); [reflexivity|].
  destruct (first_is (a :: d) c_hyphen || last_is (a :: d) c_hyphen); [reflexivity|].
  apply validateDomainLabels_pure.
Qed.

Lemma first_is_join c l t x : l <> [] -> first_is (join c (l :: t)) x = first_is l x.
Proof. destruct l; [congruence|]. destruct t; reflexivity. Qed.

Lemma label_b_ends l : label_b l = true -> l <> [] /\ first_is l c_hyphen = false /\ last_is l c_hyphen = false.
Proof.
  destruct l; [discriminate|]. unfold label_b. rewrite !andb_true_iff, !negb_true_iff. intuition discriminate.
Qed.

(* the tests that isValidDomainPart makes before it looks at the labels follow from those on the labels *)
Lemma labels_b_checks d : labels_b d = true ->
  is_empty d = false /\ existsb (fun c => beq c c_dot) d = true /\
  first_is d c_dot = false /\ last_is d c_dot = false /\ first_is d c_hyphen = false /\ last_is d c_hyphen = false.
Proof.
  unfold labels_b. rewrite split_length_ge2, andb_true_iff. intros [F D].
  assert (NE : forallb (fun a => negb (is_empty a)) (split_on c_dot d) = true).
  { rewrite forallb_forall in *. intros l Hl. rewrite (label_b_nonempty l (F l Hl)). reflexivity. }
  (* no label is empty: no leading, trailing or doubled dot; the hyphen tests are those of the first and last label *)
  rewrite (split_nonempty_pieces c_dot d x00), !andb_true_iff, !negb_true_iff in NE.
  destruct NE as [[[N Fd] Ld] _].
  split; [exact N|]. split; [exact D|]. split; [destruct d; [discriminate N|exact Fd]|]. split; [exact Ld|].
  rewrite <- (join_split c_dot d). destruct (split_on c_dot d) as [|l0 t] eqn:S; [destruct (split_on_nonempty _ _ S)|].
  destruct (label_b_ends l0) as (N0 & F0 & _); [cbn [forallb] in F; apply andb_true_iff in F; tauto|].
  destruct (label_b_ends (last (l0 :: t) [])) as (Nn & _ & Ln); [apply forallb_last; [discriminate|exact F]|].
  split; [rewrite first_is_join by exact N0; exact F0|].
  unfold last_is in *. rewrite last_join by exact Nn. exact Ln.
Qed.

Lemma domain_b_labels d : domain_b d = Nat.leb (length d) 253 && labels_b d.
Proof.
  unfold domain_b. destruct (labels_b d) eqn:H; [|rewrite !andb_false_r; reflexivity].
  destruct (labels_b_checks d H) as (-> & -> & -> & -> & -> & ->).
  rewrite !andb_true_r. reflexivity.
Qed.

Lemma label_b_iff l : label_b l = true <-> label_ok l.
Proof.
  unfold label_ok. destruct l as [|a l].
  - split; [discriminate|]. intros [[H _] _]. inversion H.
  - unfold label_b, first_is, last_is. rewrite (last_indep (a :: l) c_0 x00) by discriminate.
    cbn [is_empty negb andb hd_error length].
    rewrite !andb_true_iff, !negb_true_iff, !beq_neq, Nat.leb_le, (forallb_Forall ldh_b ldh) by reflexivity.
    intuition (try lia; congruence).
Qed.

Lemma label_no_dot l : label_ok l -> ~ In c_dot l.
Proof. intros (_ & F & _) I. rewrite Forall_forall in F. discriminate (F _ I). Qed.

Lemma domain_b_iff d : domain_b d = true <-> domain_ok d.
Proof.
  rewrite domain_b_labels. unfold labels_b. rewrite !andb_true_iff, !Nat.leb_le. split.
  - intros [L [F C]]. split; [exact L|]. exists (split_on c_dot d). split; [exact C|].
    split; [symmetry; apply join_split|]. apply (forallb_Forall _ _ _ label_b_iff), F.
  - intros [L (ls & C & -> & F)]. split; [exact L|].
    assert (N : ls <> []) by (destruct ls; [simpl in C; lia|discriminate]).
    rewrite (split_join c_dot ls N (Forall_impl _ label_no_dot F)).
    split; [apply (forallb_Forall _ _ _ label_b_iff), F|exact C].
Qed.

Definition is_at (r : N) : bool := N.eqb r 64.

Lemma at_ascii_only : ascii_only is_at.
Proof. intros r Hr. unfold is_at. lia. Qed.

Lemma is_at_byte c : is_at (b2n c) = beq c c_at.
Proof. apply (b2n_eqb c c_at). Qed.

Definition at_hits (s : bytes) : list nat := byte_hits is_at 0 s.

(* the index of the '@' if there is exactly one and it is neither the first nor the last byte *)
Lemma findAtSymbol_hits s :
  findAtSymbol s =
  match at_hits s with
  | [i] => if Nat.ltb 0 i && Nat.ltb i (length s - 1) then Z.of_nat i else (-1)%Z
  | _ => (-1)%Z
  end.
Proof.
  unfold findAtSymbol, at_hits, runes_pos.
  rewrite <- (rune_hits is_at at_ascii_only (length s) 0 s) by lia.
  change (fun x : nat * N => (snd x =? 64)%N) with (fun x : nat * N => is_at (snd x)).
  destruct (filter (fun x : nat * N => is_at (snd x)) (runes_from (length s) 0 s)) as [|[i c] [|y t]]; try reflexivity.
  cbn [rev app length map fst Nat.eqb negb orb].
  replace ((Z.of_nat i <=? 0)%Z || (Z.of_nat (length s) - 1 <=? Z.of_nat i)%Z)
    with (negb (Nat.ltb 0 i && Nat.ltb i (length s - 1))) by lia.
  destruct (Nat.ltb 0 i && Nat.ltb i (length s - 1)); reflexivity.
Qed.

Lemma at_hits_none pos s : byte_hits is_at pos s = [] <-> ~ In c_at s.
Proof.
  revert pos. induction s as [|b r IH]; intro pos; cbn [byte_hits In]; [tauto|].
  rewrite is_at_byte. destruct (beq b c_at) eqn:E.
  - apply beq_eq in E. split; [discriminate|tauto].
  - apply beq_neq in E. rewrite IH. tauto.
Qed.

Lemma at_hits_one pos s i :
  byte_hits is_at pos s = [i] <->
  exists l d, s = l ++ c_at :: d /\ i = pos + length l /\ ~ In c_at l /\ ~ In c_at d.
Proof.
  split.
  - revert pos. induction s as [|b r IH]; intro pos; cbn [byte_hits]; [discriminate|].
    rewrite is_at_byte. destruct (beq b c_at) eqn:E.
    + apply beq_eq in E as ->. intro H. injection H as <- H. apply at_hits_none in H.
      exists [], r. auto.
    + apply beq_neq in E. intros (l & d & -> & -> & Nl & Nd)%IH. exists (b :: l), d.
      split; [reflexivity|]. split; [simpl; lia|]. split; [simpl; tauto|exact Nd].
  - intros (l & d & -> & -> & Nl & Nd). rewrite byte_hits_app. cbn [byte_hits].
    rewrite is_at_byte, beq_refl, (proj2 (at_hits_none _ l) Nl), (proj2 (at_hits_none _ d) Nd). reflexivity.
Qed.

Definition email_b (s : bytes) : bool :=
  Nat.leb 5 (length s) && Nat.leb (length s) 254 &&
  match at_hits s with
  | [i] => Nat.ltb 0 i && Nat.ltb i (length s - 1) && local_b (firstn i s) && domain_b (skipn (i + 1) s)
  | _ => false
  end.

Lemma IsValidEmail_pure s : IsValidEmail s = Ok (email_b s).
Proof.
  unfold IsValidEmail, email_b. rewrite !Nat.ltb_antisym.
  destruct (Nat.leb 5 (length s)); [|reflexivity]. destruct (Nat.leb (length s) 254); [|reflexivity].
  rewrite findAtSymbol_hits.
  destruct (at_hits s) as [|i [|j t]]; try reflexivity.
  destruct (Nat.ltb 0 i && Nat.ltb i (length s - 1)) eqn:B; [|reflexivity].
  destruct (Z.eqb_spec (Z.of_nat i) (-1)); [lia|].
  rewrite Nat2Z.id, slice_to_ok, slice_from_ok by lia. cbn [bind andb].
  rewrite isValidLocalPart_pure, isValidDomainPart_pure.
  destruct (local_b (firstn i s)); reflexivity.
Qed.

Theorem IsValidEmail_total s : exists b, IsValidEmail s = Ok b.
Proof. eexists. apply IsValidEmail_pure. Qed.

Theorem IsValidEmail_exact s : IsValidEmail s = Ok true <-> email_spec s.
Proof.
  rewrite IsValidEmail_pure. unfold email_b. split.
  - intro H. apply Ok_inj in H. rewrite !andb_true_iff, !Nat.leb_le in H. destruct H as [L H]. split; [exact L|].
    destruct (at_hits s) as [|i [|j t]] eqn:A; try discriminate.
    apply at_hits_one in A as (l & d & -> & -> & Nl & Nd). cbn [Nat.add] in H.
    rewrite firstn_length_app, skipn_length_app, !andb_true_iff in H.
    destruct H as [[_ Hl%local_b_iff] Hd%domain_b_iff]. exists l, d. auto.
  - intros [L (l & d & -> & Nl & Nd & Hl%local_b_iff & Hd%domain_b_iff)]. f_equal.
    replace (at_hits (l ++ c_at :: d)) with [length l] by (symmetry; apply at_hits_one; exists l, d; auto).
    rewrite firstn_length_app, skipn_length_app. cbn [skipn].
    assert (Ll : 1 <= length l) by (destruct l; [discriminate Hl|simpl; lia]).
    assert (Ld : 1 <= length d) by (destruct d; [discriminate Hd|simpl; lia]).
    rewrite app_length in *. cbn [length] in *. lia.
Qed.

Lemma ascii_only_byte p c : ascii_only p -> p (b2n c) = true -> (b2n c < 128)%N.
Proof. intros Hp H. destruct (N.ltb_spec (b2n c) 128) as [L|L]; [exact L|]. rewrite (Hp _ L) in H. discriminate. Qed.

Lemma atext_ascii x : atext x -> (b2n x < 128)%N.
Proof.
  intro H. apply (ascii_only_byte _ _ local_char_ascii_only). rewrite local_char_byte. unfold dotok.
  rewrite H. reflexivity.
Qed.

Lemma ldh_ascii x : ldh x -> (b2n x < 128)%N.
Proof. intro H. apply (ascii_only_byte _ _ domain_char_ascii_only). rewrite domain_char_byte. exact H. Qed.

Theorem IsValidEmail_ascii s : IsValidEmail s = Ok true -> Forall (fun c => (b2n c < 128)%N) s.
Proof.
  intros [_ (l & d & -> & _ & _ & [_ (atoms & _ & -> & Fa)] & [_ (labels & _ & -> & Fl)])]%IsValidEmail_exact.
  apply Forall_app. split; [|constructor; [reflexivity|]]; apply Forall_join; try reflexivity.
  - eapply Forall_impl; [|exact Fa]. intros a [_ Ha]. exact (Forall_impl _ atext_ascii Ha).
  - eapply Forall_impl; [|exact Fl]. intros a (_ & Ha & _). exact (Forall_impl _ ldh_ascii Ha).
Qed.

Theorem IsValidEmail_non_ascii s c : In c s -> (128 <= b2n c)%N -> IsValidEmail s = Ok false.
Proof.
  intros I Hc. destruct (IsValidEmail_total s) as [[|] Hb]; [|exact Hb].
  apply IsValidEmail_ascii in Hb. rewrite Forall_forall in Hb. specialize (Hb c I). lia.
Qed.
