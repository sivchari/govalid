(* The report-exactness theorem for whole generated files, and its corollaries. *)
From GV Require Import Base.Bytes GoLite.Syntax GoLite.Sem.
From GV Require Import Gen.Decl Gen.Template Gen.Memory Gen.Spec Gen.Guard Gen.Typed Gen.GenProofs2 Gen.GenProofs3.

Lemma mask_zero tab d : in_guard tab d = true ->
  kf_nested_field_marker d = false /\ kf_structlevel_with_nested d = false /\ kf_shared_errvar tab d = false.
Proof.
  unfold in_guard, kf_mask. intro H.
  destruct (kf_nested_field_marker d), (kf_structlevel_with_nested d), (kf_duplicate_names tab d), (kf_shared_errvar tab d);
    try discriminate H; auto.
Qed.

(* the receiver is a value of the declared struct type *)
Definition wt_struct (d : sdecl) (root : value) : Prop :=
  exists cur, root = VStruct cur /\ wt_fields cur (sd_fields d).

Definition report_of (r : result) : option (list (bytes * bytes * option value)) :=
  match r with
  | RNil => Some []
  | RReport es => Some (map proj es)
  | _ => None
  end.

(* what `good` of the whole run, from the initial state, says of Validate<T>Context *)
Lemma exec_good SA ipc f root ws :
  f_tail_ok f = true ->
  good SA (run_items ipc background (sentinel_table (f_decls f)) root (f_items f) [] st0) st0 ws ->
  let o := exec_file ipc background f (Some root) in
  (o_res o = RStuck /\ SA) \/
  (report_of (o_res o) = Some (map projw ws) /\ (o_res o = RNil <-> ws = []) /\
   s_gw (o_st o) = [] /\ s_allocs (o_st o) = 2 * length ws).
Proof.
  intros Htl R. unfold exec_file. rewrite Htl.
  destruct (run_items _ _ _ _ _ _ _) as [s|o]; [right|left; exact R].
  destruct R as (E & Gw & Al). repeat split; try assumption.
  - destruct (s_errs s); exact (f_equal Some E).
  - destruct (s_errs s); [intros _; symmetry in E; exact (map_eq_nil _ _ E)|discriminate].
  - intro X. rewrite X in E. apply map_eq_nil in E. rewrite E. reflexivity.
Qed.

Section Exact.
  Variable ipc : bytes -> ipclass.
  Variable tab : numtab.

  (* the common core: either the run is ill-typed (RStuck) - and then some marker parameter of the declaration is
     outside the documented language - or it returns exactly the expected report.  Of the guard it needs the three
     classes that change what is reported; duplicate names (the fourth) only stop the Go compiler. *)
  Lemma gen_exact_core d f root :
    kf_nested_field_marker d = false -> kf_structlevel_with_nested d = false -> kf_shared_errvar tab d = false ->
    gen_file tab d = Some f -> wt_struct d root ->
    let o := exec_file ipc background f (Some root) in
    (o_res o = RStuck /\ params_ok tab d = false) \/
    (report_of (o_res o) = Some (map projw (expected ipc tab d root)) /\
     (o_res o = RNil <-> expected ipc tab d root = []) /\
     s_gw (o_st o) = [] /\ s_allocs (o_st o) = 2 * length (expected ipc tab d root)).
  Proof.
    intros G1 G2 G3 Hf (cur & -> & W). apply gen_file_inv in Hf as [_ ->].
    apply exec_good; [reflexivity|]. apply fields_run with (cur := cur); auto.
    - apply Forall_forall. intros g _. apply field_run.
    - intro N. unfold kf_structlevel_with_nested in G2. rewrite N, andb_true_r in G2. exact (no_markers _ G2).
    - apply wt_fields_Forall, W.
    - exact (lookup_exact _ (names_ok_of_guard tab d G3)).
  Qed.

  (* C07: with a context that is never done, Validate<T>Context(ctx, &v) either does not type-check
     (RStuck: outside the documented parameter language) or returns exactly the expected report *)
  Theorem gen_exact d f root :
    in_guard tab d = true -> gen_file tab d = Some f -> wt_struct d root ->
    let o := exec_file ipc background f (Some root) in
    o_res o = RStuck \/
    (report_of (o_res o) = Some (map projw (expected ipc tab d root)) /\
     (o_res o = RNil <-> expected ipc tab d root = []) /\
     s_gw (o_st o) = [] /\ s_allocs (o_st o) = 2 * length (expected ipc tab d root)).
  Proof.
    intros G Hf W. destruct (mask_zero tab d G) as (G1 & G2 & G3).
    destruct (gen_exact_core d f root G1 G2 G3 Hf W) as [[H _]|H]; [left; exact H|right; exact H].
  Qed.

  (* the same without the escape: when every marker parameter is in the documented language (params_ok, decidable)
     the generated code is well-typed and returns exactly the expected report *)
  Theorem gen_exact_typed d f root :
    in_guard tab d = true -> params_ok tab d = true -> gen_file tab d = Some f -> wt_struct d root ->
    let o := exec_file ipc background f (Some root) in
    o_res o <> RStuck /\
    report_of (o_res o) = Some (map projw (expected ipc tab d root)) /\
    (o_res o = RNil <-> expected ipc tab d root = []) /\
    s_gw (o_st o) = [] /\ s_allocs (o_st o) = 2 * length (expected ipc tab d root).
  Proof.
    intros G P Hf W. destruct (mask_zero tab d G) as (G1 & G2 & G3).
    destruct (gen_exact_core d f root G1 G2 G3 Hf W) as [[_ H]|H]; [congruence|].
    split; [|exact H]. destruct H as (H & _). intro X. rewrite X in H. discriminate H.
  Qed.

  Theorem gen_nil_receiver d f ctx : gen_file tab d = Some f ->
    o_res (exec_file ipc ctx f None) = RErr (bs "ErrNil" ++ sd_name d) /\ s_calls (o_st (exec_file ipc ctx f None)) = 0.
  Proof.
    intro H. apply gen_file_inv in H as [_ ->]. split; reflexivity.
  Qed.
End Exact.
