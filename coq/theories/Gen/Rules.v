(* internal/validator/rules, one branch of make_cond per file: the factory's type guard and the emitted
   condition; the naming scheme shared by all rules (internal/validator/fieldpath.go). *)
From GV Require Import Base.Bytes Base.StrOps Base.GoFloat GoLite.Syntax Gen.Decl.

(* Decl.field occurs in its own constructor under `list`: the induction principle Coq does not generate
   (Decl.v holds declarations only) *)
Lemma field_ind' (P : field -> Prop) :
  (forall names doc t, P (FPlain names doc t)) ->
  (forall names doc fs, Forall P fs -> P (FNested names doc fs)) -> forall fd, P fd.
Proof.
  intros HP HN. fix IH 1. intros [names doc t|names doc fs]; [apply HP|apply HN].
  induction fs as [|g r IHr]; constructor; [apply IH|exact IHr].
Qed.

Inductive rule :=
| RAlpha | RCel | REmail | REnum | RGt | RGte | RIpv4 | RIpv6 | RLength | RLt | RLte
| RMaxitems | RMaxlength | RMinitems | RMinlength | RNumeric | RRequired | RUrl | RUuid.

Definition rule_eqb (a b : rule) : bool :=
  match a, b with
  | RAlpha, RAlpha | RCel, RCel | REmail, REmail | REnum, REnum | RGt, RGt | RGte, RGte
  | RIpv4, RIpv4 | RIpv6, RIpv6 | RLength, RLength | RLt, RLt | RLte, RLte
  | RMaxitems, RMaxitems | RMaxlength, RMaxlength | RMinitems, RMinitems | RMinlength, RMinlength
  | RNumeric, RNumeric | RRequired, RRequired | RUrl, RUrl | RUuid, RUuid => true
  | _, _ => false
  end.

Lemma rule_eqb_eq a b : rule_eqb a b = true <-> a = b.
Proof.
  split; [|intros ->; destruct b; reflexivity].
  destruct a, b; intro H; try discriminate H; reflexivity.
Qed.

(* the registry: marker identifier -> rule *)
Definition registry : list (bytes * rule) :=
  [(bs "govalid:alpha", RAlpha); (bs "govalid:cel", RCel); (bs "govalid:email", REmail);
   (bs "govalid:enum", REnum); (bs "govalid:gt", RGt); (bs "govalid:gte", RGte);
   (bs "govalid:ipv4", RIpv4); (bs "govalid:ipv6", RIpv6); (bs "govalid:length", RLength);
   (bs "govalid:lt", RLt); (bs "govalid:lte", RLte); (bs "govalid:maxitems", RMaxitems);
   (bs "govalid:maxlength", RMaxlength); (bs "govalid:minitems", RMinitems);
   (bs "govalid:minlength", RMinlength); (bs "govalid:numeric", RNumeric);
   (bs "govalid:required", RRequired); (bs "govalid:url", RUrl); (bs "govalid:uuid", RUuid)].

Fixpoint assoc {A} (l : list (bytes * A)) (k : bytes) : option A :=
  match l with
  | [] => None
  | (k', v) :: r => if bytes_eqb k' k then Some v else assoc r k
  end.

Definition rule_of_id (id : bytes) : option rule := assoc registry id.

(* "Err[@PATH]<suffix>" *)
Definition suffix (r : rule) : bytes :=
  bs match r with
     | RAlpha => "AlphaValidation" | RCel => "CELValidation" | REmail => "EmailValidation"
     | REnum => "EnumValidation" | RGt => "GTValidation" | RGte => "GTEValidation"
     | RIpv4 => "Ipv4Validation" | RIpv6 => "Ipv6Validation" | RLength => "LengthValidation"
     | RLt => "LTValidation" | RLte => "LTEValidation" | RMaxitems => "MaxItemsValidation"
     | RMaxlength => "MaxLengthValidation" | RMinitems => "MinItemsValidation"
     | RMinlength => "MinLengthValidation" | RNumeric => "NumericValidation"
     | RRequired => "RequiredValidation" | RUrl => "URLValidation" | RUuid => "UUIDValidation"
     end%string.

(* type guards of the factories *)
Definition basic_is_numeric (b : basic) : bool :=      (* types.IsNumeric: integers, floats, complex *)
  match b with BInt _ | BF32 | BF64 | BC64 | BC128 => true | _ => false end.

Definition is_numeric_type (t : gtype) : bool :=
  match underlying t with TBasic b => basic_is_numeric b | _ => false end.

Definition is_string_type (t : gtype) : bool :=
  match underlying t with TBasic BString => true | _ => false end.

Definition is_collection_type (t : gtype) : bool :=
  match underlying t with TSlice | TArray _ | TMap | TChan => true | _ => false end.

(* validatorhelper.Zero and required() *)
Definition zero_lit : numlit := {| nl_int := Some 0%Z; nl_f32 := 0%Z; nl_f64 := 0%Z |}.

Definition zero_of_basic (b : basic) : option operand :=
  match b with
  | BBool => Some (OBool false)
  | BInt _ => Some (ONum zero_lit)
  | BF32 | BF64 => Some (ONum zero_lit)
  | BC64 | BC128 => Some OZeroComplex
  | BString => Some (OStr [])
  | BUnsafePtr => Some ONil
  end.

Definition zero_of (t : gtype) : option operand :=
  match t with
  | TBasic b => zero_of_basic b
  | TPointer | TInterface | TSignature => Some ONil
  | TNamed u => match u with
                | TBasic b => zero_of_basic b
                | TPointer | TInterface | TSignature => Some ONil
                | _ => None
                end
  | _ => None
  end.

(* required(name, typ): switch on the underlying type for collections, else compare with Zero *)
Definition required_cond (f : ident) (t : gtype) : option cond :=
  match underlying t with
  | TSlice | TMap | TChan => Some (CCmp OpEq (OField f) ONil)
  | TArray _ => Some (CCmp OpEq (OLen f) (ONum zero_lit))
  | _ => match zero_of t with
         | Some z => Some (CCmp OpEq (OField f) z)
         | None => None
         end
  end.

Inductive enum_kind := EString | ENumeric | ECustom.

Definition enum_kind_of (t : gtype) : option enum_kind :=
  match underlying t with
  | TBasic BString => Some EString
  | TBasic (BInt UIntptr) => None
  | TBasic (BInt _) | TBasic BF32 | TBasic BF64 => Some ENumeric
  | TBasic _ => None
  | _ => Some ECustom
  end.

Definition enum_items (arg : bytes) : list bytes := map trim_space (split_on ","%byte arg).

Fixpoint conj (cs : list cond) : option cond :=
  match cs with
  | [] => None
  | [c] => Some c
  | c :: r => match conj r with Some d => Some (CAnd c d) | None => Some c end
  end.

(* the condition for one (rule, field, type, argument); NoValidator: the factory returns nil; EmptyCond: Validate() is empty *)
Inductive made := NoValidator | EmptyCond | WithCond (c : cond).

Definition num_cmp (tab : numtab) (neg : bool) (op : cmpop) (lhs : operand) (arg : bytes) : cond :=
  match num_of tab arg with
  | Some n => if neg then CNot (CCmp op lhs (ONum n)) else CCmp op lhs (ONum n)
  | None => CRaw []
  end.

Definition make_cond (tab : numtab) (r : rule) (f : ident) (t : gtype) (arg : option bytes) : made :=
  match r with
  | RGt | RGte | RLt | RLte =>
      if is_numeric_type t then
        match arg with
        | Some a => WithCond (num_cmp tab true (match r with RGt => OpGt | RGte => OpGe | RLt => OpLt | _ => OpLe end) (OField f) a)
        | None => NoValidator
        end
      else NoValidator
  | RRequired => match required_cond f t with Some c => WithCond c | None => EmptyCond end
  | RMinlength | RMaxlength | RLength =>
      if is_string_type t then
        match arg with
        | Some a => WithCond (num_cmp tab false (match r with RMinlength => OpLt | RMaxlength => OpGt | _ => OpNe end) (ORuneCount f) a)
        | None => NoValidator
        end
      else NoValidator
  | RMinitems | RMaxitems =>
      if is_collection_type t then
        match arg with
        | Some a => WithCond (num_cmp tab false (match r with RMinitems => OpLt | _ => OpGt end) (OLen f) a)
        | None => NoValidator
        end
      else NoValidator
  | REnum =>
      match arg with
      | None => NoValidator
      | Some a =>
          match enum_kind_of t with
          | None => NoValidator
          | Some k =>
              let items := enum_items a in
              let one (it : bytes) : cond :=
                match k with
                | EString | ECustom => CCmp OpNe (OField f) (OStr it)
                | ENumeric => match num_of tab it with
                              | Some n => CCmp OpNe (OField f) (ONum n)
                              | None => CRaw []
                              end
                end in
              match conj (map one items) with Some c => WithCond c | None => EmptyCond end
          end
      end
  | REmail => if is_string_type t then WithCond (CNot (CHelper HEmail f)) else NoValidator
  | RUrl => if is_string_type t then WithCond (CNot (CHelper HURL f)) else NoValidator
  | RUuid => if is_string_type t then WithCond (CNot (CHelper HUUID f)) else NoValidator
  | RAlpha => if is_string_type t then WithCond (CNot (CHelper HAlpha f)) else NoValidator
  | RNumeric => if is_string_type t then WithCond (CNot (CHelper HNumeric f)) else NoValidator
  | RIpv4 => if is_string_type t then WithCond (CIp true f) else NoValidator
  | RIpv6 => if is_string_type t then WithCond (CIp false f) else NoValidator
  | RCel => match arg with
            | Some a => if is_empty (trim_space a) then NoValidator else WithCond (CRaw [])
            | None => NoValidator
            end
  end.

(* fieldpath.go *)
Definition dotted (l : list ident) : bytes := join "."%byte l.

(* NewFieldPath(structName, parentPath, fieldName) skips blank components; none occurs: identifiers are not blank
   and an empty parent path is [] *)
Definition field_path (S : ident) (parent : list ident) (f : ident) : bytes := dotted (S :: parent ++ [f]).
Definition cleaned (S : ident) (parent : list ident) (f : ident) : bytes := concat (S :: parent ++ [f]).

Record validator := {
  v_rule : rule;
  v_rulename : bytes;          (* marker identifier without "govalid:" = the Type of the error *)
  v_field : ident;
  v_struct : ident;
  v_parent : list ident;       (* ParentPath, as components *)
  v_cond : option cond         (* None: Validate() = "" *)
}.

Definition v_path (v : validator) : bytes := field_path (v_struct v) (v_parent v) (v_field v).
Definition v_errvar (v : validator) : ident := bs "Err" ++ cleaned (v_struct v) (v_parent v) (v_field v) ++ suffix (v_rule v).
Definition v_legacy (v : validator) : ident := bs "Err" ++ v_struct v ++ v_field v ++ suffix (v_rule v).
(* GeneratorMemory key, up to the constant per-struct prefix: (rule, cleaned path) *)
Definition v_key (v : validator) : rule * bytes := (v_rule v, cleaned (v_struct v) (v_parent v) (v_field v)).
