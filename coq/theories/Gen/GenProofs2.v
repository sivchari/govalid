(* Part 2 of the report-exactness proof: executing the checks the generator emits for one field. *)
From GV Require Import Base.Bytes GoLite.Syntax GoLite.Sem Gen.Decl Gen.Rules Gen.Template Gen.Spec Gen.GenProofs1 Gen.Typed GoLite.Safety.

(* conditions produced by make_cond never panic: no condition does *)
Section NoPanic.
  Variable ipc : bytes -> ipclass.
  Variable tab : numtab.
  Notation ev := (eval_cond ipc).

  Lemma cond_no_panic r f t arg c cur : make_cond tab r f t arg = WithCond c -> ev cur c <> CPanic.
  Proof. intros _. apply eval_cond_no_panic. Qed.
End NoPanic.

Section Run.
  Variable ipc : bytes -> ipclass.
  Variable tab : numtab.
  Variable tbl : list (ident * (bytes * bytes)).      (* the sentinel table of the generated file *)
  Variable SA : Prop.     (* "stuck allowed": some marker parameter of the declaration is outside the documented language *)
  Notation ev := (eval_cond ipc).
  Notation runi := (run_item ipc background tbl).
  Notation runs := (run_items ipc background tbl).

  Definition proj (e : entry) : bytes * bytes * option value := (e_path e, e_type e, e_value e).
  Definition projw (w : want) : bytes * bytes * option value := (w_path w, w_type w, Some (w_value w)).

  (* what a run of some items did to the state: it got stuck (the file would not type-check), or it
     appended exactly the wanted entries and touched nothing else *)
  Definition good (res : st + outcome) (s : st) (ws : list want) : Prop :=
    match res with
    | inr o => o_res o = RStuck /\ SA
    | inl s' => map proj (s_errs s') = map proj (s_errs s) ++ map projw ws /\
                s_gw s' = s_gw s /\ s_allocs s' = s_allocs s + 2 * length ws
    end.

  Lemma good_nil s : good (inl s) s [].
  Proof. cbn. rewrite app_nil_r, Nat.add_0_r. auto. Qed.

  Lemma good_trans r s s' ws ws' :
    good (inl s') s ws -> good r s' ws' -> good r s (ws ++ ws').
  Proof.
    intros (A & C & D) H. destruct r as [s''|o]; [|exact H].
    destruct H as (A' & C' & D'). cbn. rewrite A', A, map_app, app_assoc, app_length.
    repeat split; try congruence. lia.
  Qed.

  Definition no_shadow (i : item) : Prop := match i with IShadow _ => False | _ => True end.

  Lemma run_item_keeps_shadow root i sh s s' sh' : no_shadow i -> runi root i sh s = inl (s', sh') -> sh' = sh.
  Proof.
    destruct i as [|p|c acts|body]; intros N H; try contradiction.
    - injection H as _ <-. reflexivity.
    - cbn [run_item] in H. destruct (get_path root sh) as [cur|]; [|discriminate].
      destruct (ev cur c) as [[|]| |]; try discriminate; [destruct (run_actions tbl cur acts s); [|discriminate]|];
        injection H as _ <-; reflexivity.
    - rewrite run_block in H. destruct (runs root body sh s); [|discriminate]. injection H as _ <-. reflexivity.
  Qed.

  Lemma run_items_app root a b sh s :
    Forall no_shadow a ->
    runs root (a ++ b) sh s = match runs root a sh s with inl s' => runs root b sh s' | inr o => inr o end.
  Proof.
    revert s. induction a as [|i a IH]; intros s F; [reflexivity|].
    inversion F. cbn [app run_items].
    destruct (runi root i sh s) as [[s' sh']|o] eqn:E; [|reflexivity].
    rewrite (run_item_keeps_shadow _ _ _ _ _ _ H1 E). apply IH. assumption.
  Qed.

  (* one check, with the standard body *)
  Lemma run_check root sh s cur c evar f p t val :
    get_path root sh = Some (VStruct cur) ->
    lookup_sentinel tbl evar = Some (p, t) -> get_field cur f = Some val ->
    runi root (ICheck c [ACopy evar; ASetValue f; AAppend]) sh s =
    match ev (VStruct cur) c with
    | CB true => inl ({| s_errs := s_errs s ++ [{| e_sentinel := evar; e_path := p; e_type := t; e_value := Some val |}];
                         s_calls := s_calls s; s_allocs := S (S (s_allocs s)); s_gw := s_gw s; s_local := None |}, sh)
    | CB false => inl (s, sh)
    | CStuck => inr {| o_res := RStuck; o_st := s |}
    | CPanic => inr {| o_res := RPanic; o_st := s |}
    end.
  Proof.
    intros Hp Hs Hf. cbn [run_item run_actions run_action]. rewrite Hp, Hs, get_path1, Hf. reflexivity.
  Qed.

  (* every check finds its own sentinel under its error variable *)
  Definition looked_up (vs : list validator) : Prop :=
    forall vd, In vd vs -> v_cond vd <> None -> lookup_sentinel tbl (v_errvar vd) = Some (v_path vd, v_rulename vd).

  (* the checks for one (name, type) of a field and a list of markers *)
  Lemma checks_run root sh cur ms n t v S parent :
    get_path root sh = Some (VStruct cur) ->
    get_field cur n = Some v -> has_type v t = true ->
    looked_up (make_validators tab ms n t S parent) ->
    (ms_params_ok tab ms t = false -> SA) ->
    forall s, good (runs root (checks_of (make_validators tab ms n t S parent)) sh s) s (want_for ipc tab ms S parent n t v).
  Proof.
    unfold make_validators, want_for, checks_of, ms_params_ok. intros Hp Hf Ht.
    induction ms as [|m ms IH]; cbn [flat_map forallb]; intros Hlook Hpar s; [apply good_nil|].
    (* the tail's hypotheses follow from the list's *)
    specialize (IH (fun vd Hin => Hlook vd (in_or_app _ _ _ (or_intror Hin))) (fun X => Hpar (andb_false_intro2 _ _ X))).
    unfold marker_params_ok in Hpar. destruct (rule_of_id (mk_id m)) as [r|]; [|apply IH].
    pose proof (cond_table ipc tab r n t (mk_arg m) v Ht) as T.
    destruct (make_cond tab r n t (mk_arg m)) as [| |c] eqn:M.
    1, 2: rewrite T; apply IH.
    (* a check: evaluate it, by cases on the verdict *)
    pose proof (Hlook _ (or_introl eq_refl) ltac:(discriminate)) as L.
    cbn [app flat_map v_cond v_errvar v_field run_items]. rewrite (run_check root sh s cur c _ n _ _ v Hp L Hf).
    rewrite (T cur Hf).
    destruct (violated ipc tab r (mk_arg m) t v) as [[|]|] eqn:V.
    - eapply (good_trans _ s _ [_]); [|apply IH].
      cbn. rewrite map_app. repeat split. clear. lia.   (* cleared first: lia reads the whole context *)
    - apply IH.
    - split; [reflexivity|]. apply Hpar.
      destruct (rule_params_ok tab r (mk_arg m) t) eqn:RP; [destruct (verdict_defined ipc tab r n t (mk_arg m) c v RP M Ht V)|reflexivity].
  Qed.
End Run.
