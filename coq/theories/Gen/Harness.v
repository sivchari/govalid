(* Model-side observation functions used by the per-run correspondence files (gen/Run_*.v):
   what the compiled validator printed (obs) against what the model and the spec predict. *)
From GV Require Import Base.Bytes Base.StrOps GoLite.Syntax GoLite.Sem Gen.Decl Gen.Template Gen.Spec.

Inductive obs :=
| ObNil
| ObErr (name : ident)
| ObCtx (code : nat)                            (* 1 Canceled, 2 DeadlineExceeded, 0 a nil error *)
| ObReport (es : list (bytes * bytes * bool))   (* Path, Type, Value equals the field's current value *)
| ObPanic
| ObOther.

Fixpoint value_eqb (a b : value) : bool :=
  match a, b with
  | VInt x, VInt y | VF32 x, VF32 y | VF64 x, VF64 y => Z.eqb x y
  | VComplex x, VComplex y | VBool x, VBool y | VNilable x, VNilable y => Bool.eqb x y
  | VStr x, VStr y => bytes_eqb x y
  | VColl n x, VColl m y => Bool.eqb n m && Nat.eqb x y
  | VArr x, VArr y => Nat.eqb x y
  | VStruct x, VStruct y =>
      (fix go (x y : list (ident * value)) : bool :=
         match x, y with
         | [], [] => true
         | (n, v) :: x', (m, w) :: y' => bytes_eqb n m && value_eqb v w && go x' y'
         | _, _ => false
         end) x y
  | VOpaque, VOpaque => true
  | _, _ => false
  end.

(* "T.A.B" -> [A; B] *)
Definition path_tail (p : bytes) : list ident := tl (split_on "."%byte p).

Definition entry_ok (root : value) (e : entry) : bool :=
  match e_value e, get_path root (path_tail (e_path e)) with
  | Some v, Some w => value_eqb v w
  | _, _ => false
  end.

Definition obs_of (recv : option value) (o : outcome) : obs :=
  match o_res o with
  | RNil => ObNil
  | RErr n => ObErr n
  | RCtx (Some Canceled) => ObCtx 1
  | RCtx (Some DeadlineExceeded) => ObCtx 2
  | RCtx None => ObCtx 0
  | RReport es => match recv with
                  | Some root => ObReport (map (fun e => (e_path e, e_type e, entry_ok root e)) es)
                  | None => ObOther
                  end
  | RPanic => ObPanic
  | RStuck => ObOther
  end.

Definition obs_of_spec (d : sdecl) (ws : list want) : obs :=
  match ws with
  | [] => ObNil
  | _ => ObReport (map (fun w => (w_path w, w_type w, true)) ws)
  end.

Definition triple_eqb (a b : bytes * bytes * bool) : bool :=
  let '(p, t, o) := a in let '(p', t', o') := b in bytes_eqb p p' && bytes_eqb t t' && Bool.eqb o o'.

Definition obs_eqb (a b : obs) : bool :=
  match a, b with
  | ObNil, ObNil | ObPanic, ObPanic | ObOther, ObOther => true
  | ObErr x, ObErr y => bytes_eqb x y
  | ObCtx x, ObCtx y => Nat.eqb x y
  | ObReport x, ObReport y => list_eqb triple_eqb x y
  | _, _ => false
  end.

(* the property fixes which entries appear, not their order: compare reports as multisets *)
Fixpoint remove_first (t : bytes * bytes * bool) (l : list (bytes * bytes * bool)) : option (list (bytes * bytes * bool)) :=
  match l with
  | [] => None
  | x :: r => if triple_eqb t x then Some r
              else match remove_first t r with Some r' => Some (x :: r') | None => None end
  end.

Fixpoint multiset_eqb (a b : list (bytes * bytes * bool)) : bool :=
  match a with
  | [] => match b with [] => true | _ => false end
  | x :: r => match remove_first x b with Some b' => multiset_eqb r b' | None => false end
  end.

Definition obs_same_set (a b : obs) : bool :=
  match a, b with
  | ObReport x, ObReport y => multiset_eqb x y
  | _, _ => obs_eqb a b
  end.

(* C02 projection: which rules are reported (as a multiset of Type names), whatever the Path *)
Definition obs_same_types (a b : obs) : bool :=
  match a, b with
  | ObReport x, ObReport y =>
      multiset_eqb (map (fun e => let '(_, t, _) := e in ([], t, true)) x) (map (fun e => let '(_, t, _) := e in ([], t, true)) y)
  | _, _ => obs_eqb a b
  end.

(* ctx oracle of the driver: non-nil from the flip-th call on *)
Definition flip_ctx (flip : option nat) (e : ctxerr) : nat -> option ctxerr :=
  fun k => match flip with
           | Some f => if Nat.leb f k then Some e else None
           | None => None
           end.

Definition opt_file_eqb (a b : option file) : bool :=
  match a, b with
  | Some x, Some y => file_eqb x y
  | None, None => true
  | _, _ => false
  end.

(* where two files differ: (component, index); component 0 = equal, 1 = type, 2 = decls, 3 = nil guard,
   4 = items, 5 = tail, 6 = wrappers, 7 = one side has no file *)
Fixpoint first_diff {A} (e : A -> A -> bool) (a b : list A) (i : nat) : option nat :=
  match a, b with
  | [], [] => None
  | x :: a', y :: b' => if e x y then first_diff e a' b' (S i) else Some i
  | _, _ => Some i
  end.

Definition file_diff (a b : option file) : nat * nat :=
  match a, b with
  | None, None => (0, 0)
  | Some x, Some y =>
      if negb (ident_eqb (f_type x) (f_type y)) then (1, 0)
      else match first_diff vdecl_eqb (f_decls x) (f_decls y) 0 with
           | Some i => (2, i)
           | None =>
               if negb (optid_eqb (f_nilguard x) (f_nilguard y)) then (3, 0)
               else match first_diff item_eqb (f_items x) (f_items y) 0 with
                    | Some i => (4, i)
                    | None => if negb (Bool.eqb (f_tail_ok x) (f_tail_ok y)) then (5, 0)
                              else if negb (Bool.eqb (f_wrappers_ok x) (f_wrappers_ok y)) then (6, 0) else (0, 0)
                    end
           end
  | _, _ => (7, 0)
  end.

(* errors.Is(err, S) for an exported sentinel S: some entry has S's Path and Type
   (Reason is copied from S together with them; Value is ignored) *)
Definition errors_is (es : list (bytes * bytes * bool)) (path ty : bytes) : bool :=
  existsb (fun e => let '(p, t, _) := e in bytes_eqb p path && bytes_eqb t ty) es.

From GV Require Import Gen.Guard Gen.GenProofs2 Gen.GenExact.

Lemma opt_file_eqb_eq p q : opt_file_eqb p q = true -> p = q.
Proof.
  destruct p, q; try discriminate; [|reflexivity]. intro E. apply file_eqb_eq in E. congruence.
Qed.

(* If the file that the rebuilt govalid emitted (translated: p) equals the generator model's file for the
   declaration d - which is what a per-run certificate cert_i establishes by computation in the kernel - then the
   report-exactness theorem holds for THAT file, for every well-typed receiver value. *)
Theorem validator_sound ipc tab d (p : option file) :
  opt_file_eqb p (gen_file tab d) = true ->
  forall f, p = Some f -> in_guard tab d = true -> forall root, wt_struct d root ->
  let o := exec_file ipc background f (Some root) in
  o_res o = RStuck \/
  (report_of (o_res o) = Some (map projw (expected ipc tab d root)) /\
   (o_res o = RNil <-> expected ipc tab d root = []) /\
   s_gw (o_st o) = [] /\ s_allocs (o_st o) = 2 * length (expected ipc tab d root)).
Proof. intros E f -> G root W. apply opt_file_eqb_eq in E. exact (gen_exact ipc tab d f root G (eq_sym E) W). Qed.
