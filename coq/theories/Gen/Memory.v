(* validator.GeneratorMemory as an explicit state machine (internal/validator/validator.go, the Err() methods
   of the rules, run() in internal/analyzers/govalid/govalid.go): structs and packages do not see each other.
   Then gen_file read backwards (`gen_file_inv`), with which every proof about a generated file opens. *)
From GV Require Import Base.Bytes GoLite.Syntax Gen.Decl Gen.Rules Gen.Template.

Definition key := (rule * bytes)%type.
Definition mem := list key.                         (* the keys currently set to true *)

Definition mem_has (m : mem) (k : key) : bool := existsb (key_eqb k) m.

(* Err(): `if GeneratorMemory[key] { return "" }; GeneratorMemory[key] = true; return <declaration>` *)
Definition test_and_set (m : mem) (k : key) : mem * bool :=
  if mem_has m k then (m, false) else (k :: m, true).

(* template execution for one struct: which of its validators emit their declaration *)
Fixpoint run_errs (m : mem) (ks : list key) : mem * list bool :=
  match ks with
  | [] => (m, [])
  | k :: r => let '(m1, e) := test_and_set m k in
              let '(m2, es) := run_errs m1 r in (m2, e :: es)
  end.

(* one struct: ResetGeneratorMemory(), then the template *)
Definition run_struct (m : mem) (ks : list key) : mem * list bool := run_errs [] ks.

(* one package (holds GeneratorMu for the whole pass): its structs in order *)
Fixpoint run_pkg (m : mem) (structs : list (list key)) : mem * list (list bool) :=
  match structs with
  | [] => (m, [])
  | ks :: r => let '(m1, e) := run_struct m ks in
               let '(m2, es) := run_pkg m1 r in (m2, e :: es)
  end.

(* one invocation: the packages in the order in which they obtain the mutex *)
Fixpoint run_all (m : mem) (pkgs : list (list (list key))) : list (list (list bool)) :=
  match pkgs with
  | [] => []
  | p :: r => let '(m1, out) := run_pkg m p in out :: run_all m1 r
  end.

Definition alone (ks : list key) : list bool := snd (run_errs [] ks).

Lemma run_pkg_isolated m structs : snd (run_pkg m structs) = map alone structs.
Proof.
  revert m. induction structs as [|ks r IH]; intro m; [reflexivity|].
  cbn [run_pkg map]. unfold run_struct, alone at 1. destruct (run_errs [] ks) as [m1 e].
  specialize (IH m1). destruct (run_pkg m1 r). cbn [snd] in *. rewrite IH. reflexivity.
Qed.

(* whatever was generated before (other structs, packages, earlier state), every struct's
   declarations are those it gets when generated alone *)
Theorem run_all_isolated m pkgs : run_all m pkgs = map (map alone) pkgs.
Proof.
  revert m. induction pkgs as [|p r IH]; intro m; [reflexivity|].
  cbn [run_all map]. pose proof (run_pkg_isolated m p) as H.
  destruct (run_pkg m p) as [m1 out]. cbn [snd] in H. rewrite H, IH. reflexivity.
Qed.

(* hence the result does not depend on the order in which packages obtain the mutex *)
Theorem run_all_order_insensitive m m' pkgs pkgs' (p : list (list key)) :
  In p pkgs -> In p pkgs' ->
  forall out, In (p, out) (combine pkgs (run_all m pkgs)) -> In (p, out) (combine pkgs' (run_all m' pkgs')).
Proof.
  intros _ H' out H. rewrite run_all_isolated, combine_map_r in *.
  apply in_map_iff in H as (q & Hq & _). injection Hq as -> <-.
  apply in_map_iff. exists p. split; [reflexivity|exact H'].
Qed.

(* what the template writes for a declaration whose analysis is mds *)
Definition file_of (d : sdecl) (mds : list metadata) : file :=
  {| f_type := sd_name d;
     f_decls := DAssert (bs "govalid.Validator") (sd_name d) :: DNil (bs "ErrNil" ++ sd_name d)
                :: err_decls (all_validators mds) [];
     f_nilguard := Some (bs "ErrNil" ++ sd_name d);
     f_items := flat_map group_items mds;
     f_tail_ok := true; f_wrappers_ok := true |}.

Lemma gen_file_inv tab d f : gen_file tab d = Some f <-> analyze tab d <> [] /\ f = file_of d (analyze tab d).
Proof.
  change (gen_file tab d) with (match analyze tab d with [] => None | mds => Some (file_of d mds) end).
  destruct (analyze tab d); split.
  - discriminate.
  - intros [N _]. contradiction.
  - intro H. injection H as <-. split; [discriminate|reflexivity].
  - intros [_ ->]. reflexivity.
Qed.

(* the per-struct memory agrees with the generator model: err_decls starts from an empty memory *)
Theorem gen_file_uses_fresh_memory tab d f :
  gen_file tab d = Some f ->
  exists mds, analyze tab d = mds /\
              f_decls f = DAssert (bs "govalid.Validator") (sd_name d) :: DNil (bs "ErrNil" ++ sd_name d)
                          :: err_decls (all_validators mds) [].
Proof. intro H. apply gen_file_inv in H as [_ ->]. eexists. split; reflexivity. Qed.
