(* Well-typedness of the emitted conditions: for marker parameters in the documented language (`params_ok`,
   decidable) a condition never evaluates to CStuck ("the Go compiler would reject the file") on a value of the
   field's type.  The condition evaluates to the specification's verdict (cond_eval), so what is shown is that
   the verdict exists. *)
From GV Require Import Base.Bytes Base.StrOps Base.GoFloat GoLite.Syntax GoLite.Sem Gen.Decl Gen.Rules Gen.Spec Gen.GenProofs1.

Definition num_lit (tab : numtab) (a : bytes) : bool := match num_of tab a with Some _ => true | None => false end.
Definition int_lit (tab : numtab) (a : bytes) : bool :=
  match num_of tab a with Some n => match nl_int n with Some _ => true | None => false end | None => false end.

Definition is_int_type (t : gtype) : bool := match underlying t with TBasic (BInt _) => true | _ => false end.
Definition is_float_type (t : gtype) : bool := match underlying t with TBasic BF32 | TBasic BF64 => true | _ => false end.

(* the documented parameter language of one marker on a field of type t *)
Definition rule_params_ok (tab : numtab) (r : rule) (arg : option bytes) (t : gtype) : bool :=
  match r with
  | RGt | RGte | RLt | RLte =>
      if is_numeric_type t then
        match arg with
        | Some a => (is_int_type t && int_lit tab a) || (is_float_type t && num_lit tab a)   (* not complex; an integer bound for integers *)
        | None => true
        end
      else true
  | RMinlength | RMaxlength | RLength =>
      if is_string_type t then match arg with Some a => int_lit tab a | None => true end else true
  | RMinitems | RMaxitems =>
      if is_collection_type t then match arg with Some a => int_lit tab a | None => true end else true
  | REnum =>
      match arg with
      | None => true
      | Some a =>
          match enum_kind_of t with
          | None | Some EString => true
          | Some ECustom => false                                  (* enum on a non-basic type compares it with a string *)
          | Some ENumeric => forallb (fun it => if is_int_type t then int_lit tab it else num_lit tab it) (enum_items a)
          end
      end
  | RCel => match arg with Some a => is_empty (trim_space a) | None => true end   (* CEL conditions are the subject of C10 *)
  | _ => true
  end.

Definition marker_params_ok (tab : numtab) (t : gtype) (m : marker) : bool :=
  match rule_of_id (mk_id m) with Some r => rule_params_ok tab r (mk_arg m) t | None => true end.
Definition ms_params_ok (tab : numtab) (ms : list marker) (t : gtype) : bool := forallb (marker_params_ok tab t) ms.

Fixpoint field_params_ok (tab : numtab) (tms : list marker) (fd : field) : bool :=
  match fd with
  | FPlain _ doc t => ms_params_ok tab (tms ++ sorted_markers doc) t
  | FNested _ _ fs => (fix go (l : list field) : bool := match l with [] => true | g :: r => field_params_ok tab tms g && go r end) fs
  end.

(* the decidable hypothesis of the stuck-free theorems: every marker parameter of the declaration is documented *)
Definition params_ok (tab : numtab) (d : sdecl) : bool :=
  forallb (field_params_ok tab (sorted_markers (sd_doc d))) (sd_fields d).

Section Typed.
  Variable ipc : bytes -> ipclass.
  Variable tab : numtab.
  Notation ev := (eval_cond ipc).

  Lemma has_type_int v t : is_int_type t = true -> has_type v t = true -> exists z, v = VInt z.
  Proof.
    unfold is_int_type, has_type. destruct (underlying t) as [[]| | | | | | | | |]; try discriminate.
    intros _. destruct v; try discriminate. eauto.
  Qed.

  Lemma has_type_float v t : is_float_type t = true -> has_type v t = true -> (exists x, v = VF32 x) \/ (exists x, v = VF64 x).
  Proof.
    unfold is_float_type, has_type. destruct (underlying t) as [[]| | | | | | | | |]; try discriminate;
      intros _; destruct v; try discriminate; eauto.
  Qed.

  Lemma enum_numeric_type t : enum_kind_of t = Some ENumeric -> is_int_type t || is_float_type t = true.
  Proof.
    unfold enum_kind_of, is_int_type, is_float_type.
    destruct (underlying t) as [[|[]| | | | | |]| | | | | | | | |]; (discriminate || reflexivity).
  Qed.

  Lemma num_rel_defined op v t a :
    has_type v t = true -> (is_int_type t && int_lit tab a) || (is_float_type t && num_lit tab a) = true ->
    exists n b, num_of tab a = Some n /\ num_rel op v n = Some b.
  Proof.
    unfold int_lit, num_lit. intros Ht H. destruct (num_of tab a) as [n|]; [exists n|rewrite !andb_false_r in H; discriminate H].
    apply orb_true_iff in H as [H|H]; apply andb_true_iff in H as [T L].
    - destruct (has_type_int _ _ T Ht) as [z ->]. cbn. destruct (nl_int n); [eauto|discriminate L].
    - destruct (has_type_float _ _ T Ht) as [[x ->]|[x ->]]; cbn; eauto.
  Qed.

  Lemma int_rel_defined op c a :
    int_lit tab a = true -> match num_of tab a with Some n => num_rel op (VInt c) n | None => None end <> None.
  Proof. unfold int_lit. destruct (num_of tab a) as [n|]; [cbn; destruct (nl_int n)|]; discriminate. Qed.

  Lemma rule_params_ok_family r arg t :
    rule_params_ok tab r arg t =
    match family_of r with
    | FBound _ => if is_numeric_type t then
                    match arg with
                    | Some a => (is_int_type t && int_lit tab a) || (is_float_type t && num_lit tab a)
                    | None => true
                    end
                  else true
    | FLength _ => if is_string_type t then match arg with Some a => int_lit tab a | None => true end else true
    | FSize _ => if is_collection_type t then match arg with Some a => int_lit tab a | None => true end else true
    | FEnum => rule_params_ok tab REnum arg t
    | FCel => rule_params_ok tab RCel arg t
    | _ => true
    end.
  Proof. destruct r; reflexivity. Qed.

  Lemma verdict_defined r f t arg c v :
    rule_params_ok tab r arg t = true -> make_cond tab r f t arg = WithCond c -> has_type v t = true ->
    violated ipc tab r arg t v <> None.
  Proof.
    rewrite rule_params_ok_family, make_cond_family, violated_family. intros Hp Hm Ht.
    destruct (family_of r) as [op|op|op|h|w| | |].
    - destruct (is_numeric_type t); [|discriminate]. destruct arg as [a|]; [|discriminate].
      destruct (num_rel_defined op v t a Ht Hp) as (n & b & -> & ->). discriminate.
    - destruct (is_string_type t) eqn:S; [|discriminate]. destruct arg as [a|]; [|discriminate].
      destruct (has_type_string _ _ S Ht) as [s ->]. apply int_rel_defined, Hp.
    - destruct (is_collection_type t) eqn:S; [|discriminate]. destruct arg as [a|]; [|discriminate].
      destruct (has_type_coll _ _ S Ht) as [k ->]. apply int_rel_defined, Hp.
    - destruct (is_string_type t) eqn:S; [|discriminate]. destruct (has_type_string _ _ S Ht) as [s ->]. discriminate.
    - destruct (is_string_type t) eqn:S; [|discriminate]. destruct (has_type_string _ _ S Ht) as [s ->]. discriminate.
    - cbn [make_cond rule_params_ok] in Hm, Hp. destruct arg as [a|]; [|discriminate]. rewrite violated_enum.
      pose proof (enum_kind_string t) as S. pose proof (enum_numeric_type t) as N.
      destruct (enum_kind_of t) as [[]|]; try discriminate.
      + destruct (has_type_string _ _ S Ht) as [s ->]. discriminate.
      + apply all_of_defined. intros it Hit. rewrite forallb_forall in Hp. specialize (Hp it Hit).
        destruct (num_rel_defined OpNe v t it Ht) as (n & b & -> & ->); [|discriminate].
        destruct (is_int_type t); cbn [orb andb] in N, Hp |- *; [|rewrite (N eq_refl)]; rewrite Hp; reflexivity.
    - pose proof (required_table f t v Ht) as T. destruct (required_cond f t); [exact (proj1 T)|discriminate].
    - cbn [make_cond rule_params_ok] in Hm, Hp. destruct arg as [a|]; [|discriminate]. rewrite Hp in Hm. discriminate.
  Qed.

  Theorem cond_typed r f t arg c cur v :
    rule_params_ok tab r arg t = true ->
    make_cond tab r f t arg = WithCond c -> get_field cur f = Some v -> has_type v t = true ->
    ev (VStruct cur) c <> CStuck.
  Proof.
    intros Hp Hm Hf Ht E. rewrite (cond_eval ipc tab _ _ _ _ _ _ _ Hm Hf Ht) in E.
    exact (verdict_defined _ _ _ _ _ _ Hp Hm Ht (cres_of_inj _ None E)).
  Qed.
End Typed.
