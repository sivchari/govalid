(* C08, "no missing or duplicate declarations", as two decidable predicates on files (also evaluated on every
   translated real output): the identifiers the body uses are declared, for EVERY declaration; for flat structs the
   declared names are pairwise distinct unless two field names differ by a trailing "Min"/"Max" (finding D20).
   At the end, the names of the output files (finding D36). *)
From GV Require Import Base.Bytes Base.StrOps GoLite.Syntax Gen.Decl Gen.Rules Gen.Template Gen.Memory Gen.Guard Gen.GenProofs3.

Definition action_vars (a : action) : list ident :=
  match a with ACopy v => [v] | ASetGlobalValue v _ => [v] | _ => [] end.

Fixpoint item_vars (i : item) : list ident :=
  match i with
  | ICheck _ acts => flat_map action_vars acts
  | IBlock body => (fix go (l : list item) : list ident := match l with [] => [] | j :: r => item_vars j ++ go r end) body
  | IPoll | IShadow _ => []
  end.

Definition body_vars (f : file) : list ident :=
  match f_nilguard f with Some n => [n] | None => [] end ++ flat_map item_vars (f_items f).

Definition mem (x : ident) (l : list ident) : bool := existsb (bytes_eqb x) l.

Definition uses_declared_b (f : file) : bool := forallb (fun v => mem v (declared_names f)) (body_vars f).

Lemma mem_In x l : mem x l = true <-> In x l.
Proof. apply existsb_bytes_eqb. Qed.

Lemma block_vars body : item_vars (IBlock body) = flat_map item_vars body.
Proof. reflexivity. Qed.

Lemma checks_vars vs : flat_map item_vars (checks_of vs) = map v_errvar (filter has_cond vs).
Proof.
  unfold checks_of. induction vs as [|v r IH]; [reflexivity|]. cbn [flat_map filter]. unfold has_cond at 1.
  destruct (v_cond v); cbn [app flat_map map item_vars action_vars]; rewrite IH; reflexivity.
Qed.

Lemma group_vars m : flat_map item_vars (group_items m) = map v_errvar (filter has_cond (md_validators m)).
Proof.
  unfold group_items. destruct (md_parent m).
  - apply checks_vars.
  - cbn [flat_map]. rewrite block_vars, app_nil_r. apply checks_vars.
Qed.

Lemma groups_vars mds :
  flat_map item_vars (flat_map group_items mds) = map v_errvar (filter has_cond (all_validators mds)).
Proof.
  unfold all_validators. induction mds as [|m r IH]; [reflexivity|]. cbn [flat_map].
  rewrite flat_map_app, filter_app, map_app, IH, group_vars. reflexivity.
Qed.

Lemma emitted_declared vs seen w : In w (emitted vs seen) -> In (v_errvar w) (flat_map decl_name (err_decls vs seen)).
Proof.
  intro H. rewrite err_decls_emitted. apply in_flat_map. exists (DSentinel (v_errvar w) (v_path w) (v_rulename w)).
  split; [|left; reflexivity]. apply in_flat_map. exists w. split; [exact H|]. apply in_or_app. right. left. reflexivity.
Qed.

Theorem gen_uses_declared tab d f : gen_file tab d = Some f -> uses_declared_b f = true.
Proof.
  intro H. apply gen_file_inv in H as [_ ->]. apply forallb_forall. intros x Hx. apply mem_In.
  unfold body_vars in *. cbn [file_of f_nilguard f_items f_decls flat_map decl_name app] in *.
  destruct Hx as [<-|Hx]; [left; reflexivity|right].
  rewrite groups_vars in Hx. apply in_map_iff in Hx as (v & <- & Hv). apply filter_In in Hv as [Hin Hc].
  destruct (key_covered _ [] v Hin (proj1 (has_cond_true v) Hc)) as [X|(w & Hw & Hk)]; [discriminate X|].
  rewrite <- (key_errvar _ _ Hk). apply emitted_declared. exact Hw.
Qed.

Definition flat (d : sdecl) : bool := negb (existsb is_nested (sd_fields d)).

Definition names_of_field (fd : field) : list ident :=
  match fd with FPlain ns _ _ => ns | FNested ns _ _ => ns end.
Definition field_names (d : sdecl) : list ident := flat_map names_of_field (sd_fields d).

(* f = g ++ "Min" or f = g ++ "Max" *)
Definition clash (f g : ident) : bool := bytes_eqb f (g ++ bs "Min") || bytes_eqb f (g ++ bs "Max").
Definition no_clash (names : list ident) : bool :=
  forallb (fun f => forallb (fun g => negb (clash f g)) names) names.

Lemma nodup_b_iff l : nodup_b l = true <-> NoDup l.
Proof.
  induction l as [|x r IH]; cbn [nodup_b]; [split; [constructor|reflexivity]|].
  rewrite andb_true_iff, negb_true_iff, IH, <- not_true_iff_false, NoDup_cons_iff. fold (mem x r).
  rewrite mem_In. reflexivity.
Qed.

(* v is a top-level validator of the struct S on one of its declared names *)
Definition vshape (S : ident) (names : list ident) (v : validator) : Prop :=
  v_struct v = S /\ v_parent v = [] /\ In (v_field v) names.

Lemma make_validators_shape tab ms n t S parent v :
  In v (make_validators tab ms n t S parent) -> v_struct v = S /\ v_parent v = parent /\ v_field v = n.
Proof.
  intro H. apply in_flat_map in H as (m & _ & H).
  destruct (rule_of_id (mk_id m)); [|contradiction].
  destruct (make_cond tab r n t (mk_arg m)); [contradiction| |]; destruct H as [<-|[]]; auto.
Qed.

Lemma flat_validators tab d v :
  flat d = true -> In v (all_validators (analyze tab d)) -> vshape (sd_name d) (field_names d) v.
Proof.
  intros F H. apply negb_true_iff in F.
  apply in_flat_map in H as (m & Hm & Hv). apply in_flat_map in Hm as (fd & Hfd & Hm).
  pose proof (existsb_false _ _ _ F Hfd) as N. destruct fd as [names doc t|]; [|discriminate N].
  apply in_flat_map in Hm as (n & Hn & Hm).
  destruct (make_validators tab _ n t (sd_name d) []) as [|v0 vr] eqn:MV; [contradiction|].
  destruct Hm as [<-|[]]. rewrite <- MV in Hv.
  destruct (make_validators_shape _ _ _ _ _ _ _ Hv) as (A & B & C). repeat split; auto.
  rewrite C. apply in_flat_map. exists (FPlain names doc t). split; [exact Hfd|exact Hn].
Qed.

Lemma app_suffix_firstn (s2 l s1 : bytes) : s2 = l ++ s1 -> l = firstn (length s2 - length s1) s2.
Proof.
  intros ->. rewrite app_length, Nat.add_sub, <- (Nat.add_0_r (length l)), firstn_app_2. symmetry. apply app_nil_r.
Qed.

Lemma rules_registered r : In r (map snd registry).
Proof. unfold registry. cbn [map snd In]. destruct r; auto 25. Qed.

(* The rule suffixes: none is a proper suffix of another except LengthValidation of Min/MaxLengthValidation.
   If suffix r' = l ++ suffix r then l is what suffix r' has more at the front (app_suffix_firstn), so for each
   pair of rules it can be computed and compared with the three admitted values. *)
Definition suffix_pair_ok (r r' : rule) : bool :=
  let l := firstn (length (suffix r') - length (suffix r)) (suffix r') in
  negb (bytes_eqb (suffix r') (l ++ suffix r)) ||
  (is_empty l && rule_eqb r r') || bytes_eqb l (bs "Min") || bytes_eqb l (bs "Max").

Lemma suffix_pairs : let rules := map snd registry in forallb (fun r => forallb (suffix_pair_ok r) rules) rules = true.
Proof. vm_compute. reflexivity. Qed.

Lemma suffix_table r r' l :
  suffix r' = l ++ suffix r -> (l = [] /\ r = r') \/ l = bs "Min" \/ l = bs "Max".
Proof.
  intro H. pose proof suffix_pairs as T. rewrite forallb_forall in T. specialize (T r (rules_registered r)).
  rewrite forallb_forall in T. specialize (T r' (rules_registered r')). unfold suffix_pair_ok in T.
  rewrite <- (app_suffix_firstn _ _ _ H), <- H, bytes_eqb_refl in T.
  apply orb_true_iff in T as [T|T]; [apply orb_true_iff in T as [T|T]|].
  - apply andb_true_iff in T as [E R]. apply rule_eqb_eq in R. destruct l; [auto|discriminate E].
  - right. left. apply bytes_eqb_eq. exact T.
  - right. right. apply bytes_eqb_eq. exact T.
Qed.

Lemma suffix_len r : 12 <= length (suffix r).
Proof. destruct r; vm_compute; lia. Qed.

Lemma clash_app g l : l = bs "Min" \/ l = bs "Max" -> clash (g ++ l) g = true.
Proof. unfold clash. intros [->| ->]; rewrite bytes_eqb_refl; [reflexivity|apply orb_true_r]. Qed.

Lemma name_collision f r g r' :
  f ++ suffix r = g ++ suffix r' -> (f = g /\ r = r') \/ clash f g = true \/ clash g f = true.
Proof.
  intro H. apply app_eq_app in H as (l & [[-> B]|[-> B]]); destruct (suffix_table _ _ _ B) as [[-> ->]|M].
  - left. rewrite app_nil_r. auto.
  - right. left. apply clash_app, M.
  - left. rewrite app_nil_r. auto.
  - right. right. apply clash_app, M.
Qed.

Lemma no_clash_spec names f g : no_clash names = true -> In f names -> In g names -> clash f g = false.
Proof.
  unfold no_clash. intros H Hf Hg. rewrite forallb_forall in H. specialize (H f Hf).
  rewrite forallb_forall in H. specialize (H g Hg). apply negb_true_iff in H. exact H.
Qed.

Lemma errvar_flat S names v : vshape S names v -> v_errvar v = bs "Err" ++ S ++ v_field v ++ suffix (v_rule v).
Proof.
  intros (A & B & _). unfold v_errvar, cleaned. rewrite A, B. cbn [app concat]. rewrite app_nil_r, <- app_assoc. reflexivity.
Qed.

Lemma legacy_flat S names v : vshape S names v -> v_legacy v = v_errvar v.
Proof. intro H. rewrite (errvar_flat _ _ _ H). destruct H as (A & _). unfold v_legacy. rewrite A. reflexivity. Qed.

Lemma errvar_injective S names v w :
  no_clash names = true -> vshape S names v -> vshape S names w -> v_errvar v = v_errvar w -> v_key v = v_key w.
Proof.
  intros NC Hv Hw E. rewrite (errvar_flat _ _ _ Hv), (errvar_flat _ _ _ Hw) in E.
  apply app_inv_head in E. apply app_inv_head in E.
  destruct Hv as (A & B & C), Hw as (A' & B' & C').
  destruct (name_collision _ _ _ _ E) as [[F R]|[X|X]].
  - unfold v_key. rewrite A, A', B, B', F, R. reflexivity.
  - rewrite (no_clash_spec _ _ _ NC C C') in X. discriminate.
  - rewrite (no_clash_spec _ _ _ NC C' C) in X. discriminate.
Qed.

Lemma emitted_keys vs : forall seen,
  NoDup (map v_key (emitted vs seen)) /\
  (forall w, In w (emitted vs seen) -> existsb (key_eqb (v_key w)) seen = false).
Proof.
  induction vs as [|v r IH]; intro seen; [split; [constructor|intros ? []]|]. cbn [emitted].
  destruct (v_cond v); [|apply IH].
  destruct (existsb (key_eqb (v_key v)) seen) eqn:E; [apply IH|].
  destruct (IH (v_key v :: seen)) as [N D]. split.
  - constructor; [|exact N]. intro X. apply in_map_iff in X as (w & Hk & Hw).
    specialize (D w Hw). cbn [existsb] in D. rewrite (proj2 (key_eqb_eq _ _) Hk) in D. discriminate.
  - intros w [<-|Hw]; [exact E|]. specialize (D w Hw). apply orb_false_iff in D as [_ D]. exact D.
Qed.

Lemma flat_decl_names S names ws :
  Forall (vshape S names) ws -> flat_map decl_name (flat_map decls_of ws) = map v_errvar ws.
Proof.
  induction 1 as [|w r Hw _ IH]; [reflexivity|]. cbn [flat_map map]. unfold decls_of at 1.
  rewrite (legacy_flat _ _ _ Hw), bytes_eqb_refl. cbn [app flat_map decl_name]. rewrite IH. reflexivity.
Qed.

Lemma flat_nodup S names vs :
  no_clash names = true -> Forall (vshape S names) vs ->
  NoDup ((bs "ErrNil" ++ S) :: flat_map decl_name (err_decls vs [])).
Proof.
  intros NC Sh. rewrite Forall_forall in Sh.
  assert (Sh' : forall w, In w (emitted vs []) -> vshape S names w) by (intros w Hw; apply Sh, (emitted_in _ _ _ Hw)).
  rewrite err_decls_emitted, (flat_decl_names S names) by (apply Forall_forall; exact Sh'). constructor.
  - (* the nil sentinel differs from every error variable by its length: every suffix has at least 12 bytes *)
    intro X. apply in_map_iff in X as (w & Hw & Iw). rewrite (errvar_flat _ _ _ (Sh' w Iw)) in Hw.
    change (bs "ErrNil") with (bs "Err" ++ bs "Nil") in Hw. rewrite <- app_assoc in Hw.
    apply (f_equal (@length _)) in Hw. rewrite !app_length in Hw. pose proof (suffix_len (v_rule w)).
    change (length (bs "Nil")) with 3 in Hw. lia.
  - destruct (emitted_keys vs []) as [N _]. apply (NoDup_map_transfer v_key); [|exact N].
    intros x y Hx Hy. exact (errvar_injective _ _ _ _ NC (Sh' x Hx) (Sh' y Hy)).
Qed.

Theorem flat_names_distinct tab d f :
  flat d = true -> no_clash (field_names d) = true -> gen_file tab d = Some f ->
  nodup_b (declared_names f) = true.
Proof.
  intros F NC H. apply gen_file_inv in H as [_ ->]. apply nodup_b_iff.
  apply (flat_nodup _ (field_names d)); [exact NC|].
  apply Forall_forall. intros v Hv. exact (flat_validators tab d v F Hv).
Qed.

(* writeFile: <source>_<lower-cased type name>_validator.go *)
Definition out_file (lower : ident -> ident) (src T : ident) : bytes := src ++ bs "_" ++ lower T ++ bs "_validator.go".

Lemma out_file_collision lower src a b : out_file lower src a = out_file lower src b <-> lower a = lower b.
Proof.
  unfold out_file. split; [|intros ->; reflexivity]. intro H.
  apply app_inv_head in H. apply app_inv_head in H. apply app_inv_tail in H. exact H.
Qed.

Theorem out_files_distinct lower src (Ts : list ident) : NoDup (map lower Ts) <-> NoDup (map (out_file lower src) Ts).
Proof. split; apply NoDup_map_transfer; intros a b _ _; apply out_file_collision. Qed.

Definition ascii_lower_byte (c : Byte.byte) : Byte.byte :=
  let n := Byte.to_N c in
  if (N.leb 65 n && N.leb n 90)%bool then match Byte.of_N (n + 32) with Some d => d | None => c end else c.
Definition ascii_lower (s : ident) : ident := map ascii_lower_byte s.
