(* Part 3 of the report-exactness proof: groups, fields (with nesting), the sentinel table. *)
From GV Require Import Base.Bytes GoLite.Syntax GoLite.Sem.
From GV Require Import Gen.Decl Gen.Rules Gen.Template Gen.Spec Gen.Guard Gen.GenProofs1 Gen.Typed Gen.GenProofs2.

Fixpoint wt_field (cur : list (ident * value)) (fd : field) : Prop :=
  match fd with
  | FPlain names _ t => Forall (fun n => exists v, get_field cur n = Some v /\ has_type v t = true) names
  | FNested names _ fs =>
      Forall (fun n => exists sub, get_field cur n = Some (VStruct sub) /\
                                   (fix go (l : list field) : Prop :=
                                      match l with [] => True | g :: r => wt_field sub g /\ go r end) fs) names
  end.

Fixpoint wt_fields (cur : list (ident * value)) (fs : list field) : Prop :=
  match fs with [] => True | g :: r => wt_field cur g /\ wt_fields cur r end.

(* What each definition that recurses through an inner `fix` does on an inline struct, in terms of its sub-fields:
   the inner loops are Forall (as a fold), flat_map, forallb and existsb written out. *)
Lemma wt_fields_Forall cur fs : wt_fields cur fs <-> Forall (wt_field cur) fs.
Proof.
  induction fs as [|g r IH]; cbn [wt_fields]; [split; constructor|]. rewrite Forall_cons_iff, IH. reflexivity.
Qed.

Lemma wt_field_nested cur names doc fs :
  wt_field cur (FNested names doc fs) <->
  Forall (fun n => exists sub, get_field cur n = Some (VStruct sub) /\ Forall (wt_field sub) fs) names.
Proof.
  split; apply Forall_impl; intros n (sub & Hn & H); exists sub; (split; [exact Hn|]).
  - exact (proj2 (Forall_fold_right _ _) H).
  - exact (proj1 (Forall_fold_right (wt_field sub) fs) H).
Qed.

Lemma analyze_field_nested tab tms S parent names doc fs :
  analyze_field tab tms S parent (FNested names doc fs) =
  let vs := flat_map (fun nt => make_validators tab (tms ++ sorted_markers doc) (fst nt) (snd nt) S parent) (direct_fields fs) in
  flat_map (fun n => match vs with [] => [] | _ => [{| md_validators := vs; md_parent := parent ++ [n] |}] end
                     ++ flat_map (analyze_field tab tms S (parent ++ [n])) fs) names.
Proof. reflexivity. Qed.

Lemma want_field_nested ipc tab tms S parent cur names doc fs :
  want_field ipc tab tms S parent cur (FNested names doc fs) =
  flat_map (fun n => match get_field cur n with
                     | Some (VStruct sub) => flat_map (want_field ipc tab tms S (parent ++ [n]) sub) fs
                     | _ => []
                     end) names.
Proof. reflexivity. Qed.

Lemma field_params_ok_nested tab tms names doc fs :
  field_params_ok tab tms (FNested names doc fs) = forallb (field_params_ok tab tms) fs.
Proof. reflexivity. Qed.

Lemma nested_field_marker_nested names doc fs :
  kf_nested_field_marker_f (FNested names doc fs) = has_markers doc || existsb kf_nested_field_marker_f fs.
Proof. reflexivity. Qed.

Lemma no_markers doc : has_markers doc = false -> sorted_markers doc = [].
Proof. unfold has_markers, sorted_markers. destruct (markers_of_doc doc); [reflexivity|discriminate]. Qed.

Section Fields.
  Variable ipc : bytes -> ipclass.
  Variable tab : numtab.
  Variable tbl : list (ident * (bytes * bytes)).
  Variable SA : Prop.
  (* fixed through the nesting: the receiver, the struct's name and its own markers *)
  Variables (root : value) (S : ident) (tms : list marker).
  Notation runs := (run_items ipc background tbl root).
  Notation good := (good SA).
  Notation looked_up := (looked_up tbl).

  Lemma looked_up_in {X} (F : X -> list metadata) xs x :
    In x xs -> looked_up (all_validators (flat_map F xs)) -> looked_up (all_validators (F x)).
  Proof.
    intros Hx H vd Hin. apply H. apply in_flat_map in Hin as (m & Hm & Hin).
    apply in_flat_map. exists m. split; [apply in_flat_map; exists x; split; assumption|exact Hin].
  Qed.

  Lemma groups_no_shadow mds : Forall no_shadow (flat_map group_items mds).
  Proof.
    apply Forall_flat_map, Forall_forall. intros m _. unfold group_items.
    destruct (md_parent m); repeat constructor.
    apply Forall_flat_map, Forall_forall. intros v _. destruct (v_cond v); repeat constructor.
  Qed.

  Lemma group_validators vs parent :
    all_validators match vs with [] => [] | v :: r => [{| md_validators := v :: r; md_parent := parent |}] end = vs.
  Proof. destruct vs; [reflexivity|apply app_nil_r]. Qed.

  (* the group of a name, written only if it has validators: a poll, then the checks, at top level or inside a
     block that shadows t *)
  Lemma group_run parent vs ws :
    (forall s, good (runs (checks_of vs) parent s) s ws) ->
    forall s, good (runs (flat_map group_items match vs with
                                                 | [] => []
                                                 | v :: r => [{| md_validators := v :: r; md_parent := parent |}]
                                                 end) [] s) s ws.
  Proof.
    intros Hc s. destruct vs as [|v r]; [exact (Hc s)|].
    cbn [flat_map]. rewrite app_nil_r. unfold group_items. cbn [md_parent md_validators].
    (* the poll only counts a call (bump), and good does not read the count *)
    destruct parent as [|p0 pr].
    - exact (Hc (bump s 1)).
    - cbn [run_items]. rewrite run_block. cbn [run_items run_item background app].
      specialize (Hc (bump s 1)).
      destruct (runs (checks_of (v :: r)) (p0 :: pr) (bump s 1)) as [s'|o]; exact Hc.
  Qed.

  (* The shape of every level of the generator: each element x of a list (a name of a field, a field of a struct)
     contributes the groups F x and is wanted to report W x. *)
  Lemma runs_flat_map {X} (F : X -> list metadata) (W : X -> list want) xs :
    (forall x, In x xs -> forall s, good (runs (flat_map group_items (F x)) [] s) s (W x)) ->
    forall s, good (runs (flat_map group_items (flat_map F xs)) [] s) s (flat_map W xs).
  Proof.
    induction xs as [|x xs IH]; intros H s; [apply (good_nil SA)|].
    cbn [flat_map]. rewrite flat_map_app, run_items_app by apply groups_no_shadow.
    pose proof (H x (or_introl eq_refl) s) as Hx.
    destruct (runs (flat_map group_items (F x)) [] s) as [s'|o]; [|exact Hx].
    eapply good_trans; [exact Hx|]. apply IH. intros y Hy. apply H. right. exact Hy.
  Qed.

  (* What is shown of every field by induction on the nesting.  A marker on an inline struct, or a struct-level marker
     above one, would reach the propagation loop of analyze_field, which the specification does not know: the
     guard excludes both. *)
  Definition field_runs (fd : field) : Prop :=
    forall parent cur,
    get_path root parent = Some (VStruct cur) ->
    (is_nested fd = true -> tms = []) -> kf_nested_field_marker_f fd = false ->
    wt_field cur fd ->
    looked_up (all_validators (analyze_field tab tms S parent fd)) ->
    (field_params_ok tab tms fd = false -> SA) ->
    forall s, good (runs (flat_map group_items (analyze_field tab tms S parent fd)) [] s) s
                   (want_field ipc tab tms S parent cur fd).

  (* the fields of a struct, declared or inline, given its members *)
  Lemma fields_run fs : Forall field_runs fs ->
    forall parent cur,
    get_path root parent = Some (VStruct cur) ->
    (existsb is_nested fs = true -> tms = []) -> existsb kf_nested_field_marker_f fs = false ->
    Forall (wt_field cur) fs ->
    looked_up (all_validators (flat_map (analyze_field tab tms S parent) fs)) ->
    (forallb (field_params_ok tab tms) fs = false -> SA) ->
    forall s, good (runs (flat_map group_items (flat_map (analyze_field tab tms S parent) fs)) [] s) s
                   (flat_map (want_field ipc tab tms S parent cur) fs).
  Proof.
    intros IH parent cur Hp Ht Hk Hw Hl Hpar. rewrite Forall_forall in IH, Hw.
    apply runs_flat_map. intros g Hg. apply IH; auto.
    - intro N. apply Ht, existsb_exists. eauto.
    - exact (existsb_false _ _ _ Hk Hg).
    - exact (looked_up_in _ _ _ Hg Hl).
    - intro E. apply Hpar. exact (forallb_false _ _ _ Hg E).
  Qed.

  Lemma field_run fd : field_runs fd.
  Proof.
    induction fd as [names doc t|names doc fs IH] using field_ind'; intros parent cur Hp Ht Hk Hw Hl Hpar.
    - cbn [analyze_field want_field wt_field field_params_ok] in *. rewrite Forall_forall in Hw.
      apply runs_flat_map. intros n Hn. destruct (Hw n Hn) as (v & Hv & Hty). rewrite Hv.
      apply group_run.
      apply (checks_run ipc tab tbl SA root parent cur _ n t v S parent Hp Hv Hty); [|exact Hpar].
      rewrite <- (group_validators _ parent). exact (looked_up_in _ _ _ Hn Hl).
    - rewrite nested_field_marker_nested in Hk. apply orb_false_iff in Hk as [Hd Hk]. rewrite field_params_ok_nested in Hpar.
      rewrite analyze_field_nested in *. rewrite want_field_nested.
      (* no marker reaches the propagation loop *)
      rewrite (flat_map_nil _ (direct_fields fs)) in * by (intro; rewrite (Ht eq_refl), (no_markers doc Hd); reflexivity).
      apply wt_field_nested in Hw. rewrite Forall_forall in Hw.
      apply runs_flat_map. intros n Hn. destruct (Hw n Hn) as (sub & Hsub & Hws). rewrite Hsub.
      apply (fields_run fs IH); auto.
      + rewrite get_path_app, Hp. cbn [get_path]. rewrite Hsub. reflexivity.
      + exact (looked_up_in _ _ _ Hn Hl).
  Qed.
End Fields.

(* the validators whose declaration err_decls writes: those with a condition, first of their key, key not seen *)
Fixpoint emitted (vs : list validator) (seen : list (rule * bytes)) : list validator :=
  match vs with
  | [] => []
  | v :: r =>
      match v_cond v with
      | None => emitted r seen
      | Some _ => if existsb (key_eqb (v_key v)) seen then emitted r seen
                  else v :: emitted r (v_key v :: seen)
      end
  end.

Definition decls_of (v : validator) : list vdecl :=
  (if bytes_eqb (v_errvar v) (v_legacy v) then [] else [DAlias (v_legacy v) (v_errvar v)])
  ++ [DSentinel (v_errvar v) (v_path v) (v_rulename v)].

Lemma err_decls_emitted vs seen : err_decls vs seen = flat_map decls_of (emitted vs seen).
Proof.
  revert seen. induction vs as [|v r IH]; intro seen; [reflexivity|]. cbn [err_decls emitted].
  destruct (v_cond v); [|apply IH].
  destruct (existsb (key_eqb (v_key v)) seen); [apply IH|].
  cbn [flat_map]. unfold decls_of at 1. rewrite <- app_assoc, IH. reflexivity.
Qed.

Definition sentinel_of (v : validator) : ident * (bytes * bytes) := (v_errvar v, (v_path v, v_rulename v)).

Lemma table_decls ws : sentinel_table (flat_map decls_of ws) = map sentinel_of ws.
Proof.
  induction ws as [|w r IH]; [reflexivity|]. cbn [flat_map map]. unfold decls_of at 1.
  destruct (bytes_eqb (v_errvar w) (v_legacy w)); cbn [app sentinel_table]; rewrite IH; reflexivity.
Qed.

Lemma emitted_in vs seen w : In w (emitted vs seen) -> In w vs /\ v_cond w <> None.
Proof.
  revert seen. induction vs as [|v r IH]; intros seen H; [contradiction|]. cbn [emitted] in H.
  destruct (v_cond v) eqn:C.
  - destruct (existsb (key_eqb (v_key v)) seen).
    + destruct (IH _ H). split; [right|]; assumption.
    + destruct H as [<-|H]; [split; [left; reflexivity|congruence]|]. destruct (IH _ H). split; [right|]; assumption.
  - destruct (IH _ H). split; [right|]; assumption.
Qed.

Lemma key_eqb_eq a b : key_eqb a b = true <-> a = b.
Proof.
  destruct a as [r x], b as [r' y]. unfold key_eqb. cbn [fst snd].
  rewrite andb_true_iff, rule_eqb_eq, bytes_eqb_eq. split; [intros [-> ->]; reflexivity|intro H; injection H; auto].
Qed.

Lemma key_covered vs seen v :
  In v vs -> v_cond v <> None ->
  existsb (key_eqb (v_key v)) seen = true \/ exists w, In w (emitted vs seen) /\ v_key w = v_key v.
Proof.
  revert seen. induction vs as [|x r IH]; intros seen Hin Hc; [contradiction|]. cbn [emitted].
  destruct Hin as [->|Hin].
  - destruct (v_cond v); [|congruence].
    destruct (existsb (key_eqb (v_key v)) seen); [left; reflexivity|].
    right. exists v. split; [left|]; reflexivity.
  - destruct (v_cond x); [|apply IH; assumption].
    destruct (existsb (key_eqb (v_key x)) seen); [apply IH; assumption|].
    destruct (IH (v_key x :: seen) Hin Hc) as [H|(w & Hw & Hk)].
    + apply orb_true_iff in H as [H|H]; [|left; exact H].
      right. exists x. split; [left; reflexivity|]. symmetry. apply key_eqb_eq. exact H.
    + right. exists w. split; [right; exact Hw|exact Hk].
Qed.

Lemma key_errvar v w : v_key w = v_key v -> v_errvar w = v_errvar v.
Proof. unfold v_errvar. intro H. injection H as -> ->. reflexivity. Qed.

Lemma lookup_map ws name :
  match lookup_sentinel (map sentinel_of ws) name with
  | Some pt => exists w, In w ws /\ v_errvar w = name /\ pt = (v_path w, v_rulename w)
  | None => forall w, In w ws -> v_errvar w <> name
  end.
Proof.
  induction ws as [|x r IH]; [intros w []|]. cbn [map lookup_sentinel sentinel_of].
  destruct (bytes_eqb (v_errvar x) name) eqn:E.
  - apply bytes_eqb_eq in E. exists x. auto with datatypes.
  - apply bytes_eqb_neq in E. destruct (lookup_sentinel _ name).
    + destruct IH as (w & Hw & H). exists w. auto with datatypes.
    + intros w [<-|Hw]; [exact E|apply IH; exact Hw].
Qed.

Definition has_cond (v : validator) : bool := match v_cond v with Some _ => true | None => false end.

Lemma has_cond_true v : has_cond v = true <-> v_cond v <> None.
Proof. unfold has_cond. destruct (v_cond v); split; congruence. Qed.

(* no two checks share an error variable unless they share Path and Type *)
Definition names_ok (vs : list validator) : Prop :=
  forall v w, In v vs -> In w vs -> v_cond v <> None -> v_cond w <> None ->
              v_errvar v = v_errvar w -> v_path v = v_path w /\ v_rulename v = v_rulename w.

Lemma names_ok_of_guard tab d : kf_shared_errvar tab d = false -> names_ok (all_validators (analyze tab d)).
Proof.
  unfold kf_shared_errvar. intros H v w Hv Hw Cv Cw E.
  set (vs := filter _ _) in H.
  assert (Iv : In v vs) by (apply filter_In; split; [exact Hv|apply has_cond_true; exact Cv]).
  assert (Iw : In w vs) by (apply filter_In; split; [exact Hw|apply has_cond_true; exact Cw]).
  pose proof (existsb_false _ _ _ (existsb_false _ _ _ H Iv) Iw) as Y.
  unfold same_var_other_path in Y. rewrite E, bytes_eqb_refl in Y.
  apply negb_false_iff, andb_true_iff in Y as [A B]. apply bytes_eqb_eq in A, B. auto.
Qed.

Theorem lookup_exact vs :
  names_ok vs ->
  forall vd, In vd vs -> v_cond vd <> None ->
  lookup_sentinel (sentinel_table (err_decls vs [])) (v_errvar vd) = Some (v_path vd, v_rulename vd).
Proof.
  intros N vd Hin Hc. rewrite err_decls_emitted, table_decls.
  destruct (key_covered vs [] vd Hin Hc) as [H|(w & Hw & Hk)]; [discriminate H|].
  pose proof (lookup_map (emitted vs []) (v_errvar vd)) as L.
  destruct (lookup_sentinel _ _).
  - destruct L as (w' & Hw' & He & ->). destruct (emitted_in _ _ _ Hw') as [I' C'].
    destruct (N w' vd I' Hin C' Hc He) as [-> ->]. reflexivity.
  - destruct (L w Hw). apply key_errvar. exact Hk.
Qed.
