(* Part 1 of the report-exactness proof: the condition emitted for a rule, evaluated by the GoLite
   semantics on a well-typed field value, decides exactly the rule's verdict in the specification. *)
From GV Require Import Base.Bytes Base.Utf8 Base.StrOps Base.GoFloat GoLite.Syntax GoLite.Sem GoLite.Safety Gen.Decl Gen.Rules Gen.Spec.

(* a field value of the shape go/types promises for the field's type *)
Definition has_type (v : value) (t : gtype) : bool :=
  match underlying t, v with
  | TBasic (BInt _), VInt _ => true
  | TBasic BF32, VF32 _ => true
  | TBasic BF64, VF64 _ => true
  | TBasic BC64, VComplex _ | TBasic BC128, VComplex _ => true
  | TBasic BBool, VBool _ => true
  | TBasic BString, VStr _ => true
  | TBasic BUnsafePtr, VNilable _ => true
  | TPointer, VNilable _ | TInterface, VNilable _ | TSignature, VNilable _ => true
  | TSlice, VColl _ _ | TMap, VColl _ _ | TChan, VColl _ _ => true
  | TArray n, VArr m => Nat.eqb n m
  | TStructT, VOpaque => true
  | _, _ => false
  end.

(* The nineteen rules emit eight shapes of condition; make_cond and violated look at the rule only through its family. *)
Inductive family :=
| FBound (op : cmpop)        (* !(t.F op n) *)
| FLength (op : cmpop)       (* utf8.RuneCountInString(t.F) op n *)
| FSize (op : cmpop)         (* len(t.F) op n *)
| FHelper (h : helper)       (* !validationhelper.IsValidEmail(t.F) and its like *)
| FIp (v4 : bool)            (* net.ParseIP(t.F) is not an address of the wanted version *)
| FEnum | FRequired | FCel.

Definition family_of (r : rule) : family :=
  match r with
  | RGt => FBound OpGt | RGte => FBound OpGe | RLt => FBound OpLt | RLte => FBound OpLe
  | RMinlength => FLength OpLt | RMaxlength => FLength OpGt | RLength => FLength OpNe
  | RMinitems => FSize OpLt | RMaxitems => FSize OpGt
  | REmail => FHelper HEmail | RUrl => FHelper HURL | RUuid => FHelper HUUID
  | RAlpha => FHelper HAlpha | RNumeric => FHelper HNumeric
  | RIpv4 => FIp true | RIpv6 => FIp false
  | REnum => FEnum | RRequired => FRequired | RCel => FCel
  end.

(* a verdict of the specification read as the result of a condition: no verdict reads as ill-typed *)
Definition cres_of (o : option bool) : cres := match o with Some b => CB b | None => CStuck end.

Lemma cres_of_inj o o' : cres_of o = cres_of o' -> o = o'.
Proof. destruct o, o'; cbn; congruence. Qed.

Fixpoint all_of (l : list (option bool)) : option bool :=
  match l with
  | [] => Some true
  | Some b :: r => option_map (andb b) (all_of r)
  | None :: _ => None
  end.

Lemma all_of_negb {A} (p : A -> bool) l : all_of (map (fun x => Some (negb (p x))) l) = Some (negb (existsb p l)).
Proof. induction l as [|x l IH]; [reflexivity|]. cbn [map all_of existsb]. rewrite IH. destruct (p x); reflexivity. Qed.

Lemma all_of_defined {A} (g : A -> option bool) l : (forall x, In x l -> g x <> None) -> all_of (map g l) <> None.
Proof.
  induction l as [|x l IH]; intro H; [discriminate|]. cbn [map all_of].
  destruct (g x) eqn:G; [|destruct (H x (or_introl eq_refl) G)].
  destruct (all_of (map g l)); [discriminate|]. apply IH. intros y Hy. apply H. right. exact Hy.
Qed.

Lemma has_type_string v t : is_string_type t = true -> has_type v t = true -> exists s, v = VStr s.
Proof.
  unfold is_string_type, has_type. destruct (underlying t) as [[]| | | | | | | | |]; try discriminate.
  intros _. destruct v; try discriminate. eexists. reflexivity.
Qed.

Lemma has_type_str s t : has_type (VStr s) t = is_string_type t.
Proof. destruct (underlying t) as [[]| | | | | | | | |]; reflexivity. Qed.

Lemma has_type_coll v t : is_collection_type t = true -> has_type v t = true -> exists c, coll_len v = Some c.
Proof.
  unfold is_collection_type, has_type. destruct (underlying t); try discriminate;
    intros _; destruct v; try discriminate; eexists; reflexivity.
Qed.

Lemma enum_kind_string t : is_string_type t = match enum_kind_of t with Some EString => true | _ => false end.
Proof. unfold is_string_type, enum_kind_of. destruct (underlying t) as [[|[]| | | | | |]| | | | | | | | |]; reflexivity. Qed.

Lemma zero_of_underlying t :
  zero_of t = match underlying t with
              | TBasic b => zero_of_basic b
              | TPointer | TInterface | TSignature => Some ONil
              | _ => None
              end.
Proof. destruct t; reflexivity. Qed.

Lemma conj_cons x r : conj (x :: r) = Some (match conj r with Some d => CAnd x d | None => x end).
Proof. cbn [conj]. destruct r; [reflexivity|]. destruct (conj _); reflexivity. Qed.

Lemma of_cmp_ne c : of_cmp OpNe c = negb (of_cmp OpEq c).
Proof. destruct c as [[]|]; reflexivity. Qed.

Lemma num_rel_ne v n : num_rel OpNe v n = option_map negb (num_rel OpEq v n).
Proof.
  destruct v; try reflexivity; cbn [num_rel].
  - destruct (nl_int n); reflexivity.
  - exact (f_equal Some (of_cmp_ne _)).
  - exact (f_equal Some (of_cmp_ne _)).
Qed.

Lemma Zeqb_of_nat m : Z.eqb (Z.of_nat m) 0 = Nat.eqb m 0.
Proof. destruct m; reflexivity. Qed.

(* required_cond, zero_of and has_type see t only through its underlying type: one table of type against value *)
Lemma required_table f t v :
  has_type v t = true ->
  match required_cond f t with
  | Some c => is_zero_value v <> None /\
              forall ipc cur, get_field cur f = Some v -> eval_cond ipc (VStruct cur) c = cres_of (is_zero_value v)
  | None => is_zero_value v = None
  end.
Proof.
  unfold required_cond, has_type. rewrite zero_of_underlying.
  destruct (underlying t) as [[]| | | | | | | | |], v; try discriminate; intros _; try reflexivity.
  (* the remaining goals: the types with a zero test, each on a value of its shape.  The test computes the verdict, except that
     s == "" is bytes_eqb against is_empty and len(a) == 0 is in Z against nat *)
  all: split; [discriminate|]; intros ipc cur Hf; cbn [eval_cond eval_operand]; rewrite get_path1, Hf; try reflexivity.
  - apply (f_equal CB), bytes_eqb_nil.
  - apply (f_equal CB), Zeqb_of_nat.
Qed.

Lemma required_none f t v : required_cond f t = None -> has_type v t = true -> is_zero_value v = None.
Proof. intros Hc Ht. pose proof (required_table f t v Ht) as T. rewrite Hc in T. exact T. Qed.

Section Cond.
  Variable ipc : bytes -> ipclass.
  Variable tab : numtab.
  Notation ev := (eval_cond ipc).

  Lemma operand_field cur f v : get_field cur f = Some v -> eval_operand (VStruct cur) (OField f) = Some (CVal v).
  Proof. intro H. cbn [eval_operand]. rewrite get_path1, H. reflexivity. Qed.

  Lemma operand_runecount cur f s :
    get_field cur f = Some (VStr s) ->
    eval_operand (VStruct cur) (ORuneCount f) = Some (CVal (VInt (Z.of_nat (rune_count s)))).
  Proof. intro H. cbn [eval_operand]. rewrite get_path1, H. reflexivity. Qed.

  Lemma operand_len cur f v c :
    get_field cur f = Some v -> coll_len v = Some c -> eval_operand (VStruct cur) (OLen f) = Some (CVal (VInt c)).
  Proof.
    intros H K. cbn [eval_operand]. rewrite get_path1, H. destruct v; try discriminate K; injection K as <-; reflexivity.
  Qed.

  Lemma cmp_num op v n : cmp_cv op (CVal v) (CNumLit n) = num_rel op v n.
  Proof. destruct v; reflexivity. Qed.

  Lemma eval_not cur x : ev cur (CNot x) = match ev cur x with CB r => CB (negb r) | o => o end.
  Proof. reflexivity. Qed.

  Lemma eval_and cur x y :
    ev cur (CAnd x y) = match ev cur x, ev cur y with
                        | CStuck, _ | _, CStuck => CStuck
                        | CB true, r => r
                        | o, _ => o
                        end.
  Proof. reflexivity. Qed.

  Lemma eval_cmp_num cur lhs x op n :
    eval_operand (VStruct cur) lhs = Some (CVal x) -> ev (VStruct cur) (CCmp op lhs (ONum n)) = cres_of (num_rel op x n).
  Proof. intro H. cbn [eval_cond]. rewrite H. cbn [eval_operand]. rewrite cmp_num. reflexivity. Qed.

  (* bounds, lengths and sizes: the operand compared with the literal the argument denotes *)
  Lemma eval_num_cmp cur neg op lhs a x :
    eval_operand (VStruct cur) lhs = Some (CVal x) ->
    ev (VStruct cur) (num_cmp tab neg op lhs a) =
    cres_of (match num_of tab a with
             | Some n => if neg then option_map negb (num_rel op x n) else num_rel op x n
             | None => None
             end).
  Proof.
    intro H. unfold num_cmp. destruct (num_of tab a) as [n|]; [|reflexivity].
    destruct neg; [rewrite eval_not|]; rewrite (eval_cmp_num _ _ _ _ _ H); destruct (num_rel op x n); reflexivity.
  Qed.

  Lemma eval_helper cur f s h :
    get_field cur f = Some (VStr s) -> ev (VStruct cur) (CHelper h f) = CB (okb (helper_model h s)).
  Proof. intro H. cbn [eval_cond]. rewrite get_path1, H. destruct (helper_total h s) as [r ->]. reflexivity. Qed.

  Lemma eval_ip cur f s w :
    get_field cur f = Some (VStr s) ->
    ev (VStruct cur) (CIp w f) = CB (match ipc s with NotIP => true | IsV4 => negb w | IsV6 => w end).
  Proof. intro H. cbn [eval_cond]. rewrite get_path1, H. reflexivity. Qed.

  (* the members of an enum: f != "item", f != n *)
  Lemma eval_ne_str cur f v it :
    get_field cur f = Some v ->
    ev (VStruct cur) (CCmp OpNe (OField f) (OStr it)) =
    cres_of (match v with VStr s => Some (negb (bytes_eqb s it)) | _ => None end).
  Proof. intro H. cbn [eval_cond]. rewrite (operand_field _ _ _ H). destruct v; reflexivity. Qed.

  Lemma eval_ne_num cur f v it :
    get_field cur f = Some v ->
    ev (VStruct cur) (match num_of tab it with Some n => CCmp OpNe (OField f) (ONum n) | None => CRaw [] end) =
    cres_of (match num_of tab it with Some n => num_rel OpNe v n | None => None end).
  Proof. intro H. destruct (num_of tab it); [apply eval_cmp_num, operand_field, H|reflexivity]. Qed.

  (* a conjunction is ill-typed as soon as one member is, and otherwise the conjunction of its members *)
  Lemma eval_conj {A} cur (one : A -> cond) (g : A -> option bool) items c :
    (forall it, ev cur (one it) = cres_of (g it)) -> conj (map one items) = Some c ->
    ev cur c = cres_of (all_of (map g items)).
  Proof.
    intro H. revert c. induction items as [|it r IH]; intro c; [discriminate|].
    cbn [map all_of]. rewrite conj_cons. intros [= <-]. destruct (conj (map one r)) as [d|] eqn:D.
    - rewrite eval_and, H, (IH d eq_refl). destruct (g it) as [[|]|], (all_of (map g r)) as [[|]|]; reflexivity.
    - destruct r; [|cbn [map] in D; rewrite conj_cons in D; discriminate D].
      rewrite H. destruct (g it) as [[|]|]; reflexivity.
  Qed.

  Lemma make_cond_family r f t arg :
    make_cond tab r f t arg =
    match family_of r with
    | FBound op => if is_numeric_type t then
                     match arg with Some a => WithCond (num_cmp tab true op (OField f) a) | None => NoValidator end
                   else NoValidator
    | FLength op => if is_string_type t then
                      match arg with Some a => WithCond (num_cmp tab false op (ORuneCount f) a) | None => NoValidator end
                    else NoValidator
    | FSize op => if is_collection_type t then
                    match arg with Some a => WithCond (num_cmp tab false op (OLen f) a) | None => NoValidator end
                  else NoValidator
    | FHelper h => if is_string_type t then WithCond (CNot (CHelper h f)) else NoValidator
    | FIp w => if is_string_type t then WithCond (CIp w f) else NoValidator
    | FEnum => make_cond tab REnum f t arg
    | FRequired => match required_cond f t with Some c => WithCond c | None => EmptyCond end
    | FCel => make_cond tab RCel f t arg
    end.
  Proof. destruct r; reflexivity. Qed.

  Lemma violated_family r arg t v :
    violated ipc tab r arg t v =
    match family_of r with
    | FBound op => if is_numeric_type t then
                     match arg with
                     | Some a => match num_of tab a with Some n => option_map negb (num_rel op v n) | None => None end
                     | None => None
                     end
                   else None
    | FLength op => if is_string_type t then
                      match arg, str_of v with
                      | Some a, Some s => match num_of tab a with
                                          | Some n => num_rel op (VInt (Z.of_nat (rune_count s))) n
                                          | None => None
                                          end
                      | _, _ => None
                      end
                    else None
    | FSize op => if is_collection_type t then
                    match arg, coll_len v with
                    | Some a, Some c => match num_of tab a with Some n => num_rel op (VInt c) n | None => None end
                    | _, _ => None
                    end
                  else None
    | FHelper h => if is_string_type t then option_map (fun s => negb (okb (helper_model h s))) (str_of v) else None
    | FIp w => if is_string_type t then
                 option_map (fun s => match ipc s with NotIP => true | IsV4 => negb w | IsV6 => w end) (str_of v)
               else None
    | FEnum => violated ipc tab REnum arg t v
    | FRequired => is_zero_value v
    | FCel => None
    end.
  Proof. destruct r; reflexivity. Qed.

  Lemma violated_enum a t v :
    violated ipc tab REnum (Some a) t v =
    match enum_kind_of t with
    | Some EString => match v with VStr s => Some (negb (existsb (bytes_eqb s) (enum_items a))) | _ => None end
    | Some ENumeric => all_of (map (fun it => match num_of tab it with Some n => num_rel OpNe v n | None => None end)
                                   (enum_items a))
    | _ => None
    end.
  Proof.
    cbn [violated]. destruct (enum_kind_of t) as [[]|]; try reflexivity.
    induction (enum_items a) as [|it r IH]; [reflexivity|]. cbn [map forallb all_of].
    destruct (num_of tab it) as [n|]; [|reflexivity]. rewrite <- IH, num_rel_ne.
    destruct (num_rel OpEq v n), (forallb _ _); reflexivity.
  Qed.

  (* make_cond against violated, family by family: an emitted condition evaluates to the verdict, and where none is
     emitted there is no verdict *)
  Lemma cond_table r f t arg v : has_type v t = true ->
    match make_cond tab r f t arg with
    | WithCond c => forall cur, get_field cur f = Some v -> ev (VStruct cur) c = cres_of (violated ipc tab r arg t v)
    | _ => violated ipc tab r arg t v = None
    end.
  Proof.
    rewrite make_cond_family, violated_family. intros Ht. destruct (family_of r) as [op|op|op|h|w| | |].
    - destruct (is_numeric_type t); [|reflexivity]. destruct arg as [a|]; [|reflexivity]. intros cur Hf.
      exact (eval_num_cmp cur true op _ a v (operand_field _ _ _ Hf)).
    - destruct (is_string_type t) eqn:S; [|reflexivity]. destruct arg as [a|]; [|reflexivity]. intros cur Hf.
      destruct (has_type_string _ _ S Ht) as [s ->]. exact (eval_num_cmp cur false op _ a _ (operand_runecount _ _ _ Hf)).
    - destruct (is_collection_type t) eqn:S; [|reflexivity]. destruct arg as [a|]; [|reflexivity]. intros cur Hf.
      destruct (has_type_coll _ _ S Ht) as [k K]. rewrite K. exact (eval_num_cmp cur false op _ a _ (operand_len _ _ _ _ Hf K)).
    - destruct (is_string_type t) eqn:S; [|reflexivity]. intros cur Hf.
      destruct (has_type_string _ _ S Ht) as [s ->]. rewrite eval_not, (eval_helper _ _ _ _ Hf). reflexivity.
    - destruct (is_string_type t) eqn:S; [|reflexivity]. intros cur Hf.
      destruct (has_type_string _ _ S Ht) as [s ->]. apply eval_ip, Hf.
    - cbn [make_cond]. destruct arg as [a|]; [|reflexivity]. rewrite violated_enum.
      pose proof (enum_kind_string t) as S. destruct (enum_kind_of t) as [k|]; [|reflexivity].
      destruct (conj _) as [c'|] eqn:C; [intros cur Hf; destruct k|].
      + destruct (has_type_string _ _ S Ht) as [s ->].
        rewrite (eval_conj _ _ _ _ _ (fun it => eval_ne_str _ _ _ it Hf) C), all_of_negb. reflexivity.
      + exact (eval_conj _ _ _ _ _ (fun it => eval_ne_num _ _ _ it Hf) C).
      + (* a value that is no string is compared with string literals *)
        rewrite (eval_conj _ _ _ _ _ (fun it => eval_ne_str _ _ _ it Hf) C).
        destruct v; try (destruct (enum_items a); [discriminate C|reflexivity]).
        rewrite has_type_str, S in Ht. discriminate Ht.
      + (* an enum always has an item: splitting never yields the empty list *)
        unfold enum_items in C. destruct (split_on ","%byte a) eqn:E; [destruct (split_on_nonempty _ _ E)|].
        cbn [map] in C. rewrite conj_cons in C. discriminate C.
    - pose proof (required_table f t v Ht) as T. destruct (required_cond f t); [|exact T].
      intros cur Hf. exact (proj2 T ipc cur Hf).
    - cbn [make_cond]. destruct arg as [a|]; [|reflexivity]. destruct (is_empty _); reflexivity.
  Qed.

  Theorem cond_eval r f t arg c cur v :
    make_cond tab r f t arg = WithCond c -> get_field cur f = Some v -> has_type v t = true ->
    ev (VStruct cur) c = cres_of (violated ipc tab r arg t v).
  Proof. intros Hm Hf Ht. pose proof (cond_table r f t arg v Ht) as T. rewrite Hm in T. exact (T cur Hf). Qed.

  Theorem cond_sound r f t arg c cur v b :
    make_cond tab r f t arg = WithCond c -> get_field cur f = Some v -> has_type v t = true ->
    ev (VStruct cur) c = CB b -> violated ipc tab r arg t v = Some b.
  Proof. intros Hm Hf Ht. rewrite (cond_eval _ _ _ _ _ _ _ Hm Hf Ht). apply (cres_of_inj _ (Some b)). Qed.

  (* no validator, or a validator with an empty condition: the specification has no verdict either *)
  Theorem cond_absent r f t arg v :
    (forall c, make_cond tab r f t arg <> WithCond c) -> has_type v t = true -> violated ipc tab r arg t v = None.
  Proof.
    intros Hm Ht. pose proof (cond_table r f t arg v Ht) as T.
    destruct (make_cond tab r f t arg) as [| |c]; [exact T..|destruct (Hm c eq_refl)].
  Qed.
End Cond.
