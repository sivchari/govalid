(* strings.Split / strings.Join on one separator byte: the round trips, and what tests on the pieces say about
   the string.  Then slices, prefixes, strings.TrimSpace, a stable sort. *)
From GV Require Import Base.Bytes.

Fixpoint split_on (c : byte) (s : bytes) : list bytes :=
  match s with
  | [] => [[]]
  | x :: r =>
      if beq x c then [] :: split_on c r
      else match split_on c r with
           | h :: t => (x :: h) :: t
           | [] => [[x]]
           end
  end.

Fixpoint join (c : byte) (l : list bytes) : bytes :=
  match l with
  | [] => []
  | x :: t => match t with [] => x | _ => x ++ c :: join c t end
  end.

Lemma split_on_nonempty c s : split_on c s <> [].
Proof.
  destruct s as [|x r]; simpl; [congruence|].
  destruct (beq x c); [congruence|]. destruct (split_on c r); congruence.
Qed.

(* the equation of split_on at a cons, with the recursive call named instead of matched on *)
Lemma split_on_cons c x r : exists h t, split_on c r = h :: t /\
  split_on c (x :: r) = if beq x c then [] :: h :: t else (x :: h) :: t.
Proof.
  cbn [split_on]. pose proof (split_on_nonempty c r). destruct (split_on c r) as [|h t]; [congruence|]. eauto.
Qed.

Lemma join_cons c x t : t <> [] -> join c (x :: t) = x ++ c :: join c t.
Proof. destruct t; [congruence|reflexivity]. Qed.

Lemma join_split c s : join c (split_on c s) = s.
Proof.
  induction s as [|x r IH]; [reflexivity|].
  destruct (split_on_cons c x r) as (h & t & Hr & ->). rewrite Hr in IH.
  destruct (beq x c) eqn:E.
  - apply beq_eq in E as ->. simpl. f_equal. exact IH.
  - destruct t; simpl in *; congruence.
Qed.

Lemma split_no_sep c s : Forall (fun x => ~ In c x) (split_on c s).
Proof.
  induction s as [|x r IH]; [repeat constructor; simpl; tauto|].
  destruct (split_on_cons c x r) as (h & t & Hr & ->). rewrite Hr in IH.
  destruct (beq x c) eqn:E.
  - constructor; [simpl; tauto|exact IH].
  - inversion IH; subst. constructor; [|assumption].
    intros [->|H]; [rewrite beq_refl in E; discriminate|contradiction].
Qed.

Lemma split_on_nosep c x : ~ In c x -> split_on c x = [x].
Proof.
  induction x as [|a x IH]; intro H; [reflexivity|]. cbn [split_on].
  destruct (beq a c) eqn:E; [apply beq_eq in E; subst; simpl in H; tauto|].
  rewrite IH by (simpl in H; tauto). reflexivity.
Qed.

Lemma split_on_app c x r : ~ In c x -> split_on c (x ++ c :: r) = x :: split_on c r.
Proof.
  induction x as [|a x IH]; intro H.
  - simpl. rewrite beq_refl. reflexivity.
  - cbn [app split_on].
    destruct (beq a c) eqn:E; [apply beq_eq in E; subst; simpl in H; tauto|].
    rewrite IH by (simpl in H; tauto). reflexivity.
Qed.

Lemma split_join c l : l <> [] -> Forall (fun x => ~ In c x) l -> split_on c (join c l) = l.
Proof.
  induction l as [|x t IH]; [congruence|]. intros _ H. inversion H.
  destruct t as [|y t].
  - apply split_on_nosep. assumption.
  - rewrite join_cons by congruence. rewrite split_on_app by assumption. f_equal.
    apply IH; [congruence|assumption].
Qed.

Lemma forallb_split p c s : forallb (forallb p) (split_on c s) = forallb (fun x => p x || beq x c) s.
Proof.
  induction s as [|x r IH]; [reflexivity|].
  destruct (split_on_cons c x r) as (h & t & Hr & ->). rewrite Hr in IH. cbn [forallb]. rewrite <- IH.
  destruct (beq x c).
  - rewrite orb_true_r. reflexivity.
  - rewrite orb_false_r. symmetry. apply andb_assoc.
Qed.

Lemma split_length_ge2 c s : Nat.leb 2 (length (split_on c s)) = existsb (fun x => beq x c) s.
Proof.
  induction s as [|x r IH]; [reflexivity|].
  destruct (split_on_cons c x r) as (h & t & Hr & ->). rewrite Hr in IH. cbn [existsb]. rewrite <- IH.
  destruct (beq x c); reflexivity.
Qed.

Lemma Forall_join (P : byte -> Prop) c ls : P c -> Forall (Forall P) ls -> Forall P (join c ls).
Proof.
  intros Hc. induction 1 as [|l t Hl Ht IH]; [constructor|].
  destruct t; [exact Hl|].
  apply Forall_app. split; [exact Hl|]. constructor; assumption.
Qed.

Lemma last_join c ls (d : byte) : last ls [] <> [] -> last (join c ls) d = last (last ls []) d.
Proof.
  revert d. induction ls as [|l t IH]; intros d H; [contradiction|]. destruct t as [|l' t]; [reflexivity|].
  rewrite join_cons, last_app_cons by discriminate. rewrite IH by exact H. apply last_indep. exact H.
Qed.

Definition is_empty (s : bytes) : bool := match s with [] => true | _ => false end.

Lemma bytes_eqb_nil s : bytes_eqb s [] = is_empty s.
Proof. destruct s; reflexivity. Qed.

Definition slice_to (s : bytes) (n : nat) : res bytes :=
  if Nat.leb n (length s) then Ok (firstn n s) else Panic.
Definition slice_from (s : bytes) (n : nat) : res bytes :=
  if Nat.leb n (length s) then Ok (skipn n s) else Panic.

Lemma slice_to_ok s n : n <= length s -> slice_to s n = Ok (firstn n s).
Proof. intro H. unfold slice_to. apply Nat.leb_le in H. rewrite H. reflexivity. Qed.

Lemma slice_from_ok s n : n <= length s -> slice_from s n = Ok (skipn n s).
Proof. intro H. unfold slice_from. apply Nat.leb_le in H. rewrite H. reflexivity. Qed.

(* strings.Contains(s, "cc") *)
Definition has_double (c : byte) : bytes -> bool :=
  fix go s := match s with a :: (b :: _) as t => (beq a c && beq b c) || go t | _ => false end.

Lemma split_hd_empty c s : is_empty (hd [] (split_on c s)) = match s with [] => true | x :: _ => beq x c end.
Proof.
  destruct s as [|x r]; [reflexivity|].
  destruct (split_on_cons c x r) as (h & t & _ & ->). destruct (beq x c); reflexivity.
Qed.

(* Induction on s reaches the statement about all pieces only through this one about the pieces after the first:
   a byte other than c put in front makes the first piece non-empty whatever it was. *)
Lemma split_tl_nonempty c x s d :
  forallb (fun a => negb (is_empty a)) (tl (split_on c (x :: s))) =
  negb (beq (last (x :: s) d) c) && negb (has_double c (x :: s)).
Proof.
  revert x. induction s as [|y r IH]; intro x.
  - cbn. destruct (beq x c); reflexivity.
  - destruct (split_on_cons c x (y :: r)) as (h & t & Hr & ->). specialize (IH y). rewrite Hr in IH. cbn [tl] in IH.
    pose proof (split_hd_empty c (y :: r)) as Hh. rewrite Hr in Hh. cbn [hd] in Hh.
    change (has_double c (x :: y :: r)) with (beq x c && beq y c || has_double c (y :: r)).
    destruct (beq x c); cbn [tl forallb andb orb]; [|exact IH].
    rewrite Hh, IH. destruct (beq y c); [symmetry; apply andb_false_r|reflexivity].
Qed.

Lemma split_nonempty_pieces c s d :
  forallb (fun a => negb (is_empty a)) (split_on c s) =
  negb (is_empty s) && negb (beq (hd d s) c) && negb (beq (last s d) c) && negb (has_double c s).
Proof.
  destruct s as [|x r]; [reflexivity|]. rewrite <- !andb_assoc, <- split_tl_nonempty.
  destruct (split_on_cons c x r) as (h & t & _ & ->). cbn [is_empty hd negb andb].
  destruct (beq x c); reflexivity.
Qed.

Fixpoint has_prefix (p s : bytes) : bool :=
  match p, s with
  | [], _ => true
  | a :: p', b :: s' => beq a b && has_prefix p' s'
  | _ :: _, [] => false
  end.

Lemma has_prefix_iff p s : has_prefix p s = true <-> exists r, s = p ++ r.
Proof.
  revert s; induction p as [|a p IH]; intros s; simpl.
  - split; [eauto|reflexivity].
  - destruct s as [|b s]; [split; [discriminate|intros [r H]; discriminate]|].
    rewrite andb_true_iff, beq_eq, IH. split.
    + intros [-> [r ->]]. eauto.
    + intros [r H]. injection H as -> ->. eauto.
Qed.

Fixpoint drop_prefix (p s : bytes) : option bytes :=
  match p, s with
  | [], _ => Some s
  | a :: p', b :: s' => if beq a b then drop_prefix p' s' else None
  | _ :: _, [] => None
  end.

Lemma drop_prefix_app p r : drop_prefix p (p ++ r) = Some r.
Proof. induction p as [|a p IH]; [reflexivity|]. simpl. rewrite beq_refl. exact IH. Qed.

Lemma drop_prefix_some p s r : drop_prefix p s = Some r -> s = p ++ r.
Proof.
  revert s. induction p as [|a p IH]; intros s H; simpl in H.
  - injection H as ->. reflexivity.
  - destruct s as [|b s]; [discriminate|]. destruct (beq a b) eqn:E; [|discriminate].
    apply beq_eq in E. subst. simpl. f_equal. apply IH. exact H.
Qed.

(* strings.TrimPrefix *)
Definition trim_prefix (p s : bytes) : bytes := match drop_prefix p s with Some r => r | None => s end.

(* split on the first occurrence of c: (before, Some after) or (s, None) *)
Fixpoint cut (c : byte) (s : bytes) : bytes * option bytes :=
  match s with
  | [] => ([], None)
  | x :: r => if beq x c then ([], Some r)
              else let '(a, b) := cut c r in (x :: a, b)
  end.

(* strings.TrimSpace removes the runes of unicode.IsSpace at both ends: the ASCII blanks \t \n \v \f \r and space,
   U+0085, U+00A0, U+1680, U+2000..U+200A, U+2028, U+2029, U+202F, U+205F and U+3000.  A rune is decoded at the
   left end by DecodeRuneInString and at the right end by DecodeLastRuneInString; both return one of these runes
   exactly when its (unique, well-formed) encoding is a prefix, respectively a suffix, of the string, so the model
   matches the encodings as byte patterns. *)
Definition is_space (c : byte) : bool :=
  beq c " "%byte || (N.leb 9 (b2n c) && N.leb (b2n c) 13).

Definition space2 (a b : N) : bool := N.eqb a 194 && (N.eqb b 133 || N.eqb b 160).
Definition space3 (a b c : N) : bool :=
  (N.eqb a 225 && N.eqb b 154 && N.eqb c 128)
  || (N.eqb a 226 && N.eqb b 128 && ((N.leb 128 c && N.leb c 138) || N.eqb c 168 || N.eqb c 169 || N.eqb c 175))
  || (N.eqb a 226 && N.eqb b 129 && N.eqb c 159)
  || (N.eqb a 227 && N.eqb b 128 && N.eqb c 128).

Fixpoint trim_left_space (s : bytes) : bytes :=
  match s with
  | x :: r =>
      if is_space x then trim_left_space r else
      match r with
      | y :: r2 =>
          if space2 (b2n x) (b2n y) then trim_left_space r2 else
          match r2 with
          | z :: r3 => if space3 (b2n x) (b2n y) (b2n z) then trim_left_space r3 else s
          | [] => s
          end
      | [] => s
      end
  | [] => []
  end.

(* the same on the reversed string: the encodings are matched last byte first *)
Fixpoint trim_left_space_rev (s : bytes) : bytes :=
  match s with
  | x :: r =>
      if is_space x then trim_left_space_rev r else
      match r with
      | y :: r2 =>
          if space2 (b2n y) (b2n x) then trim_left_space_rev r2 else
          match r2 with
          | z :: r3 => if space3 (b2n z) (b2n y) (b2n x) then trim_left_space_rev r3 else s
          | [] => s
          end
      | [] => s
      end
  | [] => []
  end.

Definition trim_space (s : bytes) : bytes := rev (trim_left_space_rev (rev (trim_left_space s))).

Definition remove_byte (c : byte) (s : bytes) : bytes := filter (fun x => negb (beq x c)) s.

(* lexicographic order on byte strings (Go's < on strings) *)
Fixpoint bytes_ltb (a b : bytes) : bool :=
  match a, b with
  | [], [] => false
  | [], _ :: _ => true
  | _ :: _, [] => false
  | x :: a', y :: b' => if blt x y then true else if blt y x then false else bytes_ltb a' b'
  end.

(* sort.SliceStable by a key: stable insertion sort *)
Section Sort.
  Context {A : Type} (key : A -> bytes).
  Fixpoint insert_stable (x : A) (l : list A) : list A :=
    match l with
    | [] => [x]
    | y :: r => if bytes_ltb (key y) (key x) then y :: insert_stable x r else x :: l
    end.
  (* fold from the right so that equal keys keep their original order *)
  Fixpoint sort_stable (l : list A) : list A :=
    match l with
    | [] => []
    | x :: r => insert_stable x (sort_stable r)
    end.
End Sort.
