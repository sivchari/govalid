(* What trim_space (the model of strings.TrimSpace, Base/StrOps.v) removes: a maximal run of blank runes of
   unicode.IsSpace at each end, given by their UTF-8 encodings, and nothing else. *)
From GV Require Import Base.Bytes Base.Utf8 Base.StrOps.
From Coq Require Import ZifyBool.

(* one blank rune, as its encoding *)
Inductive blank_rune : bytes -> Prop :=
| br1 : forall c, is_space c = true -> blank_rune [c]
| br2 : forall a b, space2 (b2n a) (b2n b) = true -> blank_rune [a; b]
| br3 : forall a b c, space3 (b2n a) (b2n b) (b2n c) = true -> blank_rune [a; b; c].

Inductive blanks : bytes -> Prop :=
| bl_nil : blanks []
| bl_cons : forall r s, blank_rune r -> blanks s -> blanks (r ++ s).

Definition starts_blank (s : bytes) : Prop := exists r t, blank_rune r /\ s = r ++ t.
Definition ends_blank (s : bytes) : Prop := exists t r, blank_rune r /\ s = t ++ r.

Lemma blanks_app : forall a b, blanks a -> blanks b -> blanks (a ++ b).
Proof.
  intros a b Ha Hb. induction Ha as [|r s Hr Hs IH]; [exact Hb|].
  rewrite <- app_assoc. constructor; assumption.
Qed.

Lemma blanks_one : forall r, blank_rune r -> blanks r.
Proof. intros r Hr. rewrite <- (app_nil_r r). constructor; [exact Hr|constructor]. Qed.

Lemma starts_blank_app : forall a b, starts_blank a -> starts_blank (a ++ b).
Proof. intros a b (r & t & Hr & E). subst a. exists r, (t ++ b). split; [exact Hr|]. rewrite app_assoc. reflexivity. Qed.

(* starts_blank is, by conversion, starts_with blank_rune; the instances below (trim_left_space_spec and its like) rely on it *)
Definition starts_with (R : bytes -> Prop) (s : bytes) : Prop := exists w t, R w /\ s = w ++ t.

(* trim_left_space and trim_left_space_rev are, by conversion, the same loop over two sets of patterns: at the head of the
   string try a pattern of one byte, then one of two, then one of three; drop what matched and go on. R is the set of
   strings the patterns accept: blank_rune for the first, its mirror image for the second. *)
Section Matchers.
  Variables (m1 : byte -> bool) (m2 : byte -> byte -> bool) (m3 : byte -> byte -> byte -> bool).

  Fixpoint trim_left (s : bytes) : bytes :=
    match s with
    | x :: r =>
        if m1 x then trim_left r else
        match r with
        | y :: r2 =>
            if m2 x y then trim_left r2 else
            match r2 with
            | z :: r3 => if m3 x y z then trim_left r3 else s
            | [] => s
            end
        | [] => s
        end
    | [] => []
    end.

  Inductive matched : bytes -> Prop :=
  | matched1 : forall x, m1 x = true -> matched [x]
  | matched2 : forall x y, m2 x y = true -> matched [x; y]
  | matched3 : forall x y z, m3 x y z = true -> matched [x; y; z].

  Variable R : bytes -> Prop.
  Hypothesis R_matched : forall w, R w <-> matched w.

  Lemma starts_with_inv : forall s, starts_with R s ->
    match s with
    | x :: r => m1 x = true \/
        match r with
        | y :: r2 => m2 x y = true \/ match r2 with z :: _ => m3 x y z = true | [] => False end
        | [] => False
        end
    | [] => False
    end.
  Proof.
    intros s (w & t & Hw & ->). apply R_matched in Hw. destruct Hw; cbn [app]; tauto.
  Qed.

  Lemma trim_left_step : forall s,
    (~ starts_with R s /\ trim_left s = s) \/ (exists w t, R w /\ s = w ++ t /\ trim_left s = trim_left t).
  Proof.
    intros s. pose proof (starts_with_inv s) as N.
    destruct s as [|x r]; cbn [trim_left]; [tauto|].
    destruct (m1 x) eqn:E1. { right. exists [x], r. split; [apply R_matched, matched1, E1|auto]. }
    destruct r as [|y r]; [left; intuition congruence|].
    destruct (m2 x y) eqn:E2. { right. exists [x; y], r. split; [apply R_matched, matched2, E2|auto]. }
    destruct r as [|z r]; [left; intuition congruence|].
    destruct (m3 x y z) eqn:E3. { right. exists [x; y; z], r. split; [apply R_matched, matched3, E3|auto]. }
    left; intuition congruence.
  Qed.

  Lemma trim_left_fix : forall s, ~ starts_with R s -> trim_left s = s.
  Proof.
    intros s N. destruct (trim_left_step s) as [[_ E]|(w & t & Hw & E & _)]; [exact E|].
    destruct N. exists w, t. auto.
  Qed.

  (* P is what is to be known of the part removed: it holds of [] and is kept by putting an accepted string in front *)
  Lemma trim_left_spec : forall P : bytes -> Prop, P [] -> (forall w l, R w -> P l -> P (w ++ l)) ->
    forall s, exists l, s = l ++ trim_left s /\ P l /\ ~ starts_with R (trim_left s).
  Proof.
    intros P P0 Pc s. induction s as [s IH] using (induction_ltof1 _ (@length byte)).
    destruct (trim_left_step s) as [[N E]|(w & t & Hw & -> & E)].
    - exists []. rewrite E. auto.
    - destruct (IH t) as (l & El & Hl & N).
      { unfold ltof. apply R_matched in Hw. destruct Hw; cbn; lia. }
      exists (w ++ l). rewrite E, <- app_assoc, <- El. auto.
  Qed.

  (* When no accepted string begins another, the order in which the patterns are tried does not show. *)
  Lemma trim_left_matched :
    (forall x y, m1 x = true -> m2 x y = true -> False) ->
    (forall x y z, m1 x = true -> m3 x y z = true -> False) ->
    (forall x y z, m2 x y = true -> m3 x y z = true -> False) ->
    forall w t, R w -> trim_left (w ++ t) = trim_left t.
  Proof.
    intros X12 X13 X23 w t Hw. apply R_matched in Hw. destruct Hw as [x H|x y H|x y z H]; cbn [app trim_left].
    - rewrite H. reflexivity.
    - destruct (m1 x) eqn:E1; [destruct (X12 x y E1 H)|]. rewrite H. reflexivity.
    - destruct (m1 x) eqn:E1; [destruct (X13 x y z E1 H)|].
      destruct (m2 x y) eqn:E2; [destruct (X23 x y z E2 H)|]. rewrite H. reflexivity.
  Qed.
End Matchers.

(* where the bytes of the three kinds of encoding lie: all that is used of the tables is_space, space2, space3 (Base/StrOps.v) *)
Lemma is_space_range : forall c, is_space c = true -> (b2n c <= 32)%N.
Proof.
  intros c. unfold is_space. rewrite orb_true_iff, beq_eq. intros [->|H]; [cbv; discriminate|lia].
Qed.

Lemma space2_range : forall a b, space2 a b = true -> (a = 194 /\ 128 <= b <= 160)%N.
Proof. unfold space2. lia. Qed.

Lemma space3_range : forall a b c, space3 a b c = true ->
  (225 <= a <= 227 /\ 128 <= b <= 154 /\ 128 <= c <= 175)%N.
Proof. unfold space3. lia. Qed.

Lemma blank_rune_matched : forall w, blank_rune w <->
  matched is_space (fun x y => space2 (b2n x) (b2n y)) (fun x y z => space3 (b2n x) (b2n y) (b2n z)) w.
Proof. intros w. split; intros []; constructor; assumption. Qed.

Lemma trim_left_space_spec : forall s,
  exists l, s = l ++ trim_left_space s /\ blanks l /\ ~ starts_blank (trim_left_space s).
Proof. exact (trim_left_spec _ _ _ _ blank_rune_matched blanks bl_nil bl_cons). Qed.

Lemma trim_left_space_fix : forall s, ~ starts_blank s -> trim_left_space s = s.
Proof. exact (trim_left_fix _ _ _ _ blank_rune_matched). Qed.

Lemma trim_left_blank_rune : forall w t, blank_rune w -> trim_left_space (w ++ t) = trim_left_space t.
Proof.
  refine (trim_left_matched _ _ _ _ blank_rune_matched _ _ _).
  - intros x y H1 H2. apply is_space_range in H1. apply space2_range in H2. lia.
  - intros x y z H1 H3. apply is_space_range in H1. apply space3_range in H3. lia.
  - intros x y z H2 H3. apply space2_range in H2. apply space3_range in H3. lia.
Qed.

Lemma trim_left_blanks : forall l s, blanks l -> trim_left_space (l ++ s) = trim_left_space s.
Proof.
  intros l s Hl. induction Hl as [|w l Hw Hl IH]; [reflexivity|].
  rewrite <- app_assoc, trim_left_blank_rune; assumption.
Qed.

(* the right end is the left end of the reversed string, with the patterns read backwards *)
Definition trim_right_space (s : bytes) : bytes := rev (trim_left_space_rev (rev s)).

Lemma blank_rune_rev_matched : forall w, blank_rune (rev w) <->
  matched is_space (fun x y => space2 (b2n y) (b2n x)) (fun x y z => space3 (b2n z) (b2n y) (b2n x)) w.
Proof.
  intros w. split; [intros H; rewrite <- (rev_involutive w); destruct H|intros []]; constructor; assumption.
Qed.

Lemma ends_blank_rev : forall s, ends_blank s <-> starts_with (fun w => blank_rune (rev w)) (rev s).
Proof.
  intros s. split.
  - intros (t & w & Hw & ->). exists (rev w), (rev t). rewrite rev_involutive, rev_app_distr. auto.
  - intros (w & t & Hw & E). exists (rev t), (rev w). split; [exact Hw|apply rev_eq_app, E].
Qed.

Lemma trim_right_space_spec : forall s,
  exists r, s = trim_right_space s ++ r /\ blanks r /\ ~ ends_blank (trim_right_space s).
Proof.
  intros s.
  destruct (trim_left_spec _ _ _ _ blank_rune_rev_matched (fun l => blanks (rev l)) bl_nil) with (s := rev s)
    as (l & E & Hl & N).
  { intros w l Hw Hl. rewrite rev_app_distr. apply blanks_app; [exact Hl|apply blanks_one, Hw]. }
  exists (rev l). split; [exact (rev_eq_app _ _ _ E)|]. split; [exact Hl|].
  unfold trim_right_space. rewrite ends_blank_rev, rev_involutive. exact N.
Qed.

Lemma trim_right_space_fix : forall s, ~ ends_blank s -> trim_right_space s = s.
Proof.
  intros s N. rewrite ends_blank_rev in N. unfold trim_right_space.
  rewrite (trim_left_fix _ _ _ _ blank_rune_rev_matched _ N : trim_left_space_rev (rev s) = rev s).
  apply rev_involutive.
Qed.

Lemma trim_right_blank_rune : forall s w, blank_rune w -> trim_right_space (s ++ w) = trim_right_space s.
Proof.
  intros s w Hw. unfold trim_right_space. rewrite rev_app_distr. f_equal.
  refine (trim_left_matched _ _ _ _ blank_rune_rev_matched _ _ _ (rev w) (rev s) _).
  - intros x y H1 H2. apply is_space_range in H1. apply space2_range in H2. lia.
  - intros x y z H1 H3. apply is_space_range in H1. apply space3_range in H3. lia.
  - intros x y z H2 H3. apply space2_range in H2. apply space3_range in H3. lia.
  - rewrite rev_involutive. exact Hw.
Qed.

Lemma trim_right_blanks : forall r s, blanks r -> trim_right_space (s ++ r) = trim_right_space s.
Proof.
  intros r s Hr. revert s. induction Hr as [|w r Hw Hr IH]; intros s; [rewrite app_nil_r; reflexivity|].
  rewrite app_assoc, IH. apply trim_right_blank_rune, Hw.
Qed.

Lemma trim_space_ends : forall s, trim_space s = trim_right_space (trim_left_space s).
Proof. reflexivity. Qed.

(* strings.TrimSpace: s = (blank runes) ++ trim_space s ++ (blank runes), and what is left neither starts nor ends with a blank rune *)
Theorem trim_space_spec : forall s,
  exists l r, s = l ++ trim_space s ++ r /\ blanks l /\ blanks r /\
              ~ starts_blank (trim_space s) /\ ~ ends_blank (trim_space s).
Proof.
  intros s. destruct (trim_left_space_spec s) as (l & El & Hl & Nl).
  destruct (trim_right_space_spec (trim_left_space s)) as (r & Er & Hr & Nr).
  exists l, r. rewrite trim_space_ends, <- Er.
  repeat split; try assumption. intros H. apply Nl. rewrite Er. apply starts_blank_app, H.
Qed.

Theorem trim_space_fix : forall s, ~ starts_blank s -> ~ ends_blank s -> trim_space s = s.
Proof.
  intros s H1 H2. rewrite trim_space_ends, (trim_left_space_fix s H1). apply trim_right_space_fix, H2.
Qed.

Theorem trim_space_idem : forall s, trim_space (trim_space s) = trim_space s.
Proof.
  intros s. destruct (trim_space_spec s) as (l & r & _ & _ & _ & N1 & N2). apply trim_space_fix; assumption.
Qed.

(* Uniqueness needs one more thing of the encodings: the first byte of a blank rune is no continuation byte of UTF-8, its
   other bytes are, so no blank rune begins inside another. *)
Lemma blank_rune_bytes : forall w, blank_rune w ->
  match w with c :: u => is_cont c = false /\ Forall (fun b => is_cont b = true) u | [] => False end.
Proof.
  intros w [c H|a b H|a b c H]; [apply is_space_range in H|apply space2_range in H|apply space3_range in H];
    unfold is_cont; (split; [lia|repeat constructor; lia]).
Qed.

Lemma blanks_first : forall s, blanks s -> match s with c :: _ => is_cont c = false | [] => True end.
Proof.
  intros s [|w s' Hw _]; [exact I|]. apply blank_rune_bytes in Hw.
  destruct w as [|c u]; [contradiction|exact (proj1 Hw)].
Qed.

(* A blank rune that begins in m and ends in r would have a continuation byte where r begins, and r begins with a blank rune. *)
Lemma no_blank_across : forall m r, m <> [] -> ~ starts_blank m -> blanks r -> ~ starts_blank (m ++ r).
Proof.
  intros m r Hm N Hr (w & t & Hw & E). apply app_eq_app in E. destruct E as (u & [[E _]|[E Er]]).
  - apply N. exists w, u. auto.
  - destruct u as [|c u].
    + rewrite app_nil_r in E. subst w. apply N. exists m, []. rewrite app_nil_r. auto.
    + subst w r. destruct m as [|x m]; [congruence|]. apply blank_rune_bytes in Hw. destruct Hw as [_ Hw].
      apply Forall_elt in Hw. apply blanks_first in Hr. congruence.
Qed.

Corollary trim_space_unique : forall s l m r, s = l ++ m ++ r -> blanks l -> blanks r -> ~ starts_blank m -> ~ ends_blank m -> m = trim_space s.
Proof.
  intros s l m r -> Hl Hr S N. rewrite trim_space_ends, (trim_left_blanks l _ Hl). destruct m as [|x m].
  - cbn [app]. rewrite <- (app_nil_r r), (trim_left_blanks r _ Hr). reflexivity.
  - rewrite trim_left_space_fix by (apply no_blank_across; [discriminate|assumption|assumption]).
    rewrite (trim_right_blanks r _ Hr). symmetry. apply trim_right_space_fix, N.
Qed.

(* strings.TrimSpace is characterised by trim_space_spec: the middle piece of such a decomposition is unique *)
Theorem trim_decomposition_unique : forall l m r l' m' r',
  l ++ m ++ r = l' ++ m' ++ r' -> blanks l -> blanks r -> blanks l' -> blanks r' ->
  ~ starts_blank m -> ~ ends_blank m -> ~ starts_blank m' -> ~ ends_blank m' -> m = m'.
Proof.
  intros l m r l' m' r' E Hl Hr Hl' Hr' S N S' N'.
  rewrite (trim_space_unique _ l m r eq_refl Hl Hr S N), E. symmetry. apply (trim_space_unique _ l' m' r'); auto.
Qed.
