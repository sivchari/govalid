(* What "the number of code points" means, independently of the decoder: RFC 3629 encoding of scalar
   values, and a greedy reading of arbitrary byte strings in which every byte that does not start a
   valid sequence counts as one.  Theorems: the decoder inverts the encoder, and rune_count computes
   exactly that count. *)
From GV Require Import Base.Bytes Base.Utf8.
From Coq Require Import ZifyN ZifyNat ZifyBool.
Local Open Scope N_scope.

Definition scalar (c : N) : Prop := c < 55296 \/ (57344 <= c /\ c <= 1114111).   (* not a surrogate, <= U+10FFFF *)

Definition nb (n : N) : byte := match Byte.of_N n with Some b => b | None => x00 end.   (* the byte of value n *)

Lemma b2n_nb n : n < 256 -> b2n (nb n) = n.
Proof.
  intro H. unfold nb. destruct (Byte.of_N n) as [b|] eqn:E.
  - apply Byte.to_of_N. exact E.
  - apply Byte.of_N_None_iff in E. lia.
Qed.

Lemma nb_b2n b : nb (b2n b) = b.
Proof. unfold nb. rewrite Byte.of_to_N. reflexivity. Qed.

Lemma nb_eq n b : b2n b = n -> nb n = b.
Proof. intros <-. apply nb_b2n. Qed.

Lemma cont_nb d : d < 64 -> cont (nb (128 + d)) d.
Proof. split; [apply b2n_nb; lia|assumption]. Qed.

Lemma nb_cont b d : cont b d -> nb (128 + d) = b.
Proof. intros [E _]. apply nb_eq, E. Qed.

Definition utf8_encode (c : N) : bytes :=
  if c <? 128 then [nb c]
  else if c <? 2048 then [nb (192 + c / 64); nb (128 + c mod 64)]
  else if c <? 65536 then [nb (224 + c / 4096); nb (128 + (c / 64) mod 64); nb (128 + c mod 64)]
  else [nb (240 + c / 262144); nb (128 + (c / 4096) mod 64); nb (128 + (c / 64) mod 64); nb (128 + c mod 64)].

(* base-64 digits: what follows keeps / and mod away from lia *)
Lemma div64 a d : d < 64 -> (a * 64 + d) / 64 = a.
Proof. intro H. symmetry. apply (N.div_unique _ 64 a d); lia. Qed.

Lemma mod64 a d : d < 64 -> (a * 64 + d) mod 64 = d.
Proof. intro H. symmetry. apply (N.mod_unique _ 64 a d); lia. Qed.

Lemma div4096 c : c / 4096 = c / 64 / 64.
Proof. symmetry. apply (N.div_div c 64 64); discriminate. Qed.

Lemma div262144 c : c / 262144 = c / 64 / 64 / 64.
Proof. rewrite <- (div4096 c). symmetry. apply (N.div_div c 4096 64); discriminate. Qed.

Lemma digits c : exists a d, c = a * 64 + d /\ d < 64.
Proof.
  exists (c / 64), (c mod 64). split; [rewrite N.mul_comm; apply N.div_mod'|apply N.mod_lt; discriminate].
Qed.

(* the encoder on a code point given by its digits *)
Lemma encode_1 c : c < 128 -> utf8_encode c = [nb c].
Proof. intro H. unfold utf8_encode. rewrite if_true by lia. reflexivity. Qed.

Lemma encode_2 a d : d < 64 -> 128 <= a * 64 + d < 2048 -> utf8_encode (a * 64 + d) = [nb (192 + a); nb (128 + d)].
Proof.
  intros H Hc. unfold utf8_encode. rewrite if_false, if_true by lia.
  rewrite div64, mod64 by exact H. reflexivity.
Qed.

Lemma encode_3 a d1 d2 : d1 < 64 -> d2 < 64 -> 2048 <= (a * 64 + d1) * 64 + d2 < 65536 ->
  utf8_encode ((a * 64 + d1) * 64 + d2) = [nb (224 + a); nb (128 + d1); nb (128 + d2)].
Proof.
  intros H1 H2 Hc. unfold utf8_encode. rewrite !if_false, if_true by lia.
  rewrite div4096, !div64, !mod64 by assumption. reflexivity.
Qed.

Lemma encode_4 a d1 d2 d3 : d1 < 64 -> d2 < 64 -> d3 < 64 -> 65536 <= ((a * 64 + d1) * 64 + d2) * 64 + d3 ->
  utf8_encode (((a * 64 + d1) * 64 + d2) * 64 + d3) = [nb (240 + a); nb (128 + d1); nb (128 + d2); nb (128 + d3)].
Proof.
  intros H1 H2 H3 Hc. unfold utf8_encode. rewrite !if_false by lia.
  rewrite div262144, div4096, !div64, !mod64 by assumption. reflexivity.
Qed.

Theorem decode_encode c r : scalar c -> decode_rune (utf8_encode c ++ r) = (c, length (utf8_encode c)).
Proof.
  unfold scalar. intro S. destruct (N.lt_ge_cases c 128) as [H1|H1].
  { rewrite encode_1 by exact H1. cbn [app]. rewrite decode_ascii; rewrite b2n_nb by lia; [reflexivity|exact H1]. }
  destruct (digits c) as (q1 & e1 & -> & L1). destruct (N.lt_ge_cases (q1 * 64 + e1) 2048) as [H2|H2].
  { rewrite encode_2 by auto. apply accepts_decode, acc2; [apply b2n_nb|apply cont_nb|]; lia. }
  destruct (digits q1) as (q2 & e2 & -> & L2). destruct (N.lt_ge_cases ((q2 * 64 + e2) * 64 + e1) 65536) as [H3|H3].
  { rewrite encode_3 by auto. apply accepts_decode, acc3; [apply b2n_nb|apply cont_nb|apply cont_nb|]; lia. }
  destruct (digits q2) as (q3 & e3 & -> & L3). rewrite encode_4 by auto.
  apply accepts_decode, acc4; [apply b2n_nb|apply cont_nb|apply cont_nb|apply cont_nb|]; lia.
Qed.

(* the decoder only ever accepts RFC 3629 encodings of scalar values *)
Theorem encode_decode p r x : accepts p r x -> scalar (fst x) /\ p :: r = utf8_encode (fst x) ++ skipn (snd x) (p :: r).
Proof.
  destruct 1 as [r H|a d b1 r Hp C1 Ha|a d1 d2 b1 b2 r Hp C1 C2 Ha|a d1 d2 d3 b1 b2 b3 r Hp C1 C2 C3 Ha];
    unfold scalar, cont in *; cbn [fst snd skipn].
  - rewrite encode_1, nb_b2n by exact H. split; [lia|reflexivity].
  - rewrite encode_2, (nb_eq _ _ Hp), (nb_cont _ _ C1) by lia. split; [lia|reflexivity].
  - rewrite encode_3, (nb_eq _ _ Hp), (nb_cont _ _ C1), (nb_cont _ _ C2) by lia. split; [lia|reflexivity].
  - rewrite encode_4, (nb_eq _ _ Hp), (nb_cont _ _ C1), (nb_cont _ _ C2), (nb_cont _ _ C3) by lia. split; [lia|reflexivity].
Qed.

Inductive cpcount : bytes -> nat -> Prop :=
| cc_nil : cpcount [] 0
| cc_valid c r n : scalar c -> cpcount r n -> cpcount (utf8_encode c ++ r) (S n)
| cc_invalid b r n :
    (forall c r', scalar c -> b :: r <> utf8_encode c ++ r') ->     (* b starts no valid sequence *)
    cpcount r n -> cpcount (b :: r) (S n).                            (* ... and counts as one *)

Local Close Scope N_scope.

Lemma runes_from_length_indep f f' pos pos' s :
  length s <= f -> length s <= f' -> length (runes_from f pos s) = length (runes_from f' pos' s).
Proof.
  intro H. revert f' pos'. revert f pos s H.
  apply (runes_from_ind (fun _ s l => forall f' pos', length s <= f' -> length l = length (runes_from f' pos' s))).
  - intros _ [|f']; reflexivity.
  - intros pos p r c w l D W IH [|f'] pos' H'; [simpl in H'; lia|].
    cbn [runes_from]. rewrite D. cbn [length]. f_equal. apply IH. rewrite skipn_length. lia.
Qed.

Lemma rune_count_step s c w : s <> [] -> decode_rune s = (c, w) -> rune_count s = S (rune_count (skipn w s)).
Proof.
  intros N D. pose proof (decode_width_pos s N) as W. rewrite D in W. destruct s as [|b r]; [congruence|].
  unfold rune_count, runes_pos. cbn [length runes_from]. rewrite D. cbn [length]. f_equal.
  apply runes_from_length_indep; rewrite ?skipn_length; cbn [snd length] in *; lia.
Qed.

Lemma encode_length c : 1 <= length (utf8_encode c) <= 4.
Proof. unfold utf8_encode. destruct (c <? 128)%N, (c <? 2048)%N, (c <? 65536)%N; simpl; lia. Qed.

Lemma encode_nonempty c r : utf8_encode c ++ r <> [].
Proof. pose proof (encode_length c). destruct (utf8_encode c); [simpl in *; lia|discriminate]. Qed.

Theorem rune_count_valid c r : scalar c -> rune_count (utf8_encode c ++ r) = S (rune_count r).
Proof.
  intro S. rewrite (rune_count_step _ _ _ (encode_nonempty c r) (decode_encode c r S)).
  rewrite skipn_app, skipn_all, Nat.sub_diag. reflexivity.
Qed.

(* rune_count computes the specified count, and the count is unique *)
Theorem cpcount_rune_count s : cpcount s (rune_count s).
Proof.
  unfold rune_count, runes_pos. apply (runes_from_ind (fun _ s l => cpcount s (length l))); [constructor| |apply le_n].
  intros pos p r c w l D _ IH. destruct (decode_cases p r) as [A|E]; rewrite D in *.
  - apply encode_decode in A as [Sc E]. rewrite E. apply cc_valid; assumption.
  - injection E as -> ->. apply cc_invalid; [|exact IH]. intros c' r' Sc' E.
    (* the decoder answered (RuneError, 1), and U+FFFD takes three bytes *)
    pose proof (decode_encode c' r' Sc') as D'. rewrite <- E, D in D'. injection D' as <- L. discriminate L.
Qed.

Theorem cpcount_unique s n : cpcount s n -> n = rune_count s.
Proof.
  induction 1 as [|c r n Sc _ IH|b r n Hb _ IH].
  - reflexivity.
  - rewrite rune_count_valid by exact Sc. congruence.
  - destruct (decode_cases b r) as [A|E].
    + apply encode_decode in A as [Sc E]. destruct (Hb _ _ Sc E).
    + rewrite (rune_count_step (b :: r) _ _ ltac:(discriminate) E). cbn [skipn]. congruence.
Qed.

Corollary rune_count_valid_text (cs : list N) : Forall scalar cs -> rune_count (concat (map utf8_encode cs)) = length cs.
Proof.
  induction 1 as [|c cs Sc _ IH]; [reflexivity|]. cbn [map concat length]. rewrite rune_count_valid by exact Sc. congruence.
Qed.

Corollary rune_count_le_length s : rune_count s <= length s.
Proof.
  unfold rune_count, runes_pos. apply (runes_from_ind (fun _ s l => length l <= length s)); [reflexivity| |apply le_n].
  intros pos p r c w l _ W IH. rewrite skipn_length in IH. cbn [length] in *. lia.
Qed.
