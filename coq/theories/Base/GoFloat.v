(* Go's float32 / float64 comparison operators, through Flocq's IEEE-754 formalisation.
   Values cross every boundary as bit patterns (Z). *)
From Coq Require Import ZArith Reals Bool Lia Lra.
From Flocq Require Import IEEE754.Binary IEEE754.Bits Core.Raux.

Inductive cmpop := OpEq | OpNe | OpLt | OpLe | OpGt | OpGe.

Definition of_cmp (op : cmpop) (c : option comparison) : bool :=
  match op, c with
  | OpEq, Some Eq => true
  | OpNe, Some Eq => false
  | OpNe, _ => true                       (* NaN != x is true *)
  | OpLt, Some Lt => true
  | OpLe, Some Lt | OpLe, Some Eq => true
  | OpGt, Some Gt => true
  | OpGe, Some Gt | OpGe, Some Eq => true
  | _, _ => false
  end.

Definition norm32 (b : Z) : Z := Z.modulo b (2 ^ 32).
Definition norm64 (b : Z) : Z := Z.modulo b (2 ^ 64).

Definition f32 (bits : Z) : binary32 := b32_of_bits (norm32 bits).
Definition f64 (bits : Z) : binary64 := b64_of_bits (norm64 bits).

Definition fcmp32 (op : cmpop) (x y : Z) : bool := of_cmp op (Bcompare 24 128 (f32 x) (f32 y)).
Definition fcmp64 (op : cmpop) (x y : Z) : bool := of_cmp op (Bcompare 53 1024 (f64 x) (f64 y)).

Definition is_nan32 (x : Z) : bool := is_nan 24 128 (f32 x).
Definition is_nan64 (x : Z) : bool := is_nan 53 1024 (f64 x).

Definition zcmp (op : cmpop) (x y : Z) : bool :=
  match op with
  | OpEq => Z.eqb x y | OpNe => negb (Z.eqb x y)
  | OpLt => Z.ltb x y | OpLe => Z.leb x y
  | OpGt => Z.ltb y x | OpGe => Z.leb y x
  end.

Section Meaning.
  Variables prec emax : Z.
  Let float := binary_float prec emax.

  Inductive xreal := XNeg_inf | XFin (r : R) | XPos_inf.

  Definition xreal_of (x : float) : option xreal :=
    match x with
    | B754_nan _ _ _ _ _ => None
    | B754_infinity _ _ true => Some XNeg_inf
    | B754_infinity _ _ false => Some XPos_inf
    | _ => Some (XFin (B2R prec emax x))
    end.

  Definition xlt (a b : xreal) : Prop :=
    match a, b with
    | XNeg_inf, XNeg_inf => False
    | XNeg_inf, _ => True
    | XFin r, XFin s => (r < s)%R
    | XFin _, XPos_inf => True
    | _, _ => False
    end.

  Definition xrel (op : cmpop) (a b : xreal) : Prop :=
    match op with
    | OpEq => a = b | OpNe => a <> b
    | OpLt => xlt a b | OpLe => xlt a b \/ a = b
    | OpGt => xlt b a | OpGe => xlt b a \/ a = b
    end.

  (* v OP n holds in Go  <->  neither is NaN and the relation holds on the extended reals
     (for != : or one of them is NaN) *)
  Definition go_float_rel (op : cmpop) (x y : float) : Prop :=
    match xreal_of x, xreal_of y with
    | Some a, Some b => xrel op a b
    | _, _ => op = OpNe
    end.

  (* the order of the extended reals as a three-way comparison: Bcompare computes it *)
  Definition xcompare (a b : xreal) : comparison :=
    match a, b with
    | XNeg_inf, XNeg_inf | XPos_inf, XPos_inf => Eq
    | XNeg_inf, _ | _, XPos_inf => Lt
    | XFin r, XFin s => Rcompare r s
    | _, _ => Gt
    end.

  Lemma Bcompare_xreal (x y : float) :
    Bcompare prec emax x y =
    match xreal_of x, xreal_of y with Some a, Some b => Some (xcompare a b) | _, _ => None end.
  Proof.
    (* a NaN or an infinity decides the comparison by computation; two finite operands go through Bcompare_correct *)
    destruct x as [sx|[|]|sx px Hx|sx mx ex Hx], y as [sy|[|]|sy py Hy|sy my ey Hy];
      try reflexivity;
      rewrite Bcompare_correct by reflexivity; reflexivity.
  Qed.

  Lemma xcompare_rel (op : cmpop) (a b : xreal) : of_cmp op (Some (xcompare a b)) = true <-> xrel op a b.
  Proof.
    assert (F : forall r s, XFin r = XFin s <-> r = s) by (split; [intro H; injection H; auto | intros ->; reflexivity]).
    destruct a as [|r|], b as [|s|]; cbn [xcompare];
      try (destruct op; cbn; intuition congruence).
    destruct (Rcompare_spec r s); destruct op; cbn [of_cmp xrel xlt]; rewrite ?F;
      intuition (try discriminate; try lra).
  Qed.

  Theorem of_cmp_meaning (op : cmpop) (x y : float) :
    of_cmp op (Bcompare prec emax x y) = true <-> go_float_rel op x y.
  Proof.
    unfold go_float_rel. rewrite Bcompare_xreal.
    destruct (xreal_of x) as [a|], (xreal_of y) as [b|]; try (destruct op; cbn; intuition congruence).
    apply xcompare_rel.
  Qed.
End Meaning.
