(* Go's view of a string as a sequence of runes: utf8.DecodeRuneInString / range-over-string /
   utf8.RuneCountInString.  Invalid or truncated sequences yield RuneError (U+FFFD), width 1. *)
From GV Require Import Base.Bytes.
From Coq Require Import ZifyN ZifyNat ZifyBool.
Local Open Scope N_scope.

Definition RuneError : N := 65533.   (* 0xFFFD *)

Definition is_cont (b : byte) : bool := (128 <=? b2n b) && (b2n b <=? 191).   (* 0x80..0xBF *)
Definition in_nrng (lo hi : N) (b : byte) : bool := (lo <=? b2n b) && (b2n b <=? hi).

(* (rune, width); width 0 only for the empty string *)
Definition decode_rune (s : bytes) : N * nat :=
  match s with
  | [] => (RuneError, 0%nat)
  | p0 :: r =>
      let n0 := b2n p0 in
      if n0 <? 128 then (n0, 1%nat)
      else if n0 <? 194 then (RuneError, 1%nat)                  (* 0x80..0xC1: never a lead byte *)
      else if n0 <? 224 then                                      (* 0xC2..0xDF: 2 bytes *)
        match r with
        | b1 :: _ => if is_cont b1 then ((n0 - 192) * 64 + (b2n b1 - 128), 2%nat) else (RuneError, 1%nat)
        | _ => (RuneError, 1%nat)
        end
      else if n0 <? 240 then                                      (* 0xE0..0xEF: 3 bytes *)
        match r with
        | b1 :: b2 :: _ =>
            let lo := if n0 =? 224 then 160 else 128 in           (* E0: A0..BF *)
            let hi := if n0 =? 237 then 159 else 191 in           (* ED: 80..9F (no surrogates) *)
            if in_nrng lo hi b1 && is_cont b2
            then ((n0 - 224) * 4096 + (b2n b1 - 128) * 64 + (b2n b2 - 128), 3%nat)
            else (RuneError, 1%nat)
        | _ => (RuneError, 1%nat)
        end
      else if n0 <? 245 then                                      (* 0xF0..0xF4: 4 bytes *)
        match r with
        | b1 :: b2 :: b3 :: _ =>
            let lo := if n0 =? 240 then 144 else 128 in           (* F0: 90..BF *)
            let hi := if n0 =? 244 then 143 else 191 in           (* F4: 80..8F *)
            if in_nrng lo hi b1 && is_cont b2 && is_cont b3
            then ((n0 - 240) * 262144 + (b2n b1 - 128) * 4096 + (b2n b2 - 128) * 64 + (b2n b3 - 128), 4%nat)
            else (RuneError, 1%nat)
        | _ => (RuneError, 1%nat)
        end
      else (RuneError, 1%nat)                                     (* 0xF5..0xFF *)
  end.

(* for i, c := range s  ==>  the list of (byte index, rune) *)
Fixpoint runes_from (fuel : nat) (pos : nat) (s : bytes) : list (nat * N) :=
  match fuel with
  | O => []
  | S f =>
      match s with
      | [] => []
      | _ => let '(r, w) := decode_rune s in (pos, r) :: runes_from f (w + pos)%nat (skipn w s)
      end
  end.

Definition runes_pos (s : bytes) : list (nat * N) := runes_from (length s) 0 s.
Definition runes (s : bytes) : list N := map snd (runes_pos s).
Definition rune_count (s : bytes) : nat := length (runes_pos s).   (* utf8.RuneCountInString *)

(* a continuation byte 10xxxxxx carrying the base-64 digit d *)
Definition cont (b : byte) (d : N) : Prop := b2n b = 128 + d /\ d < 64.

(* "utf8.DecodeRune takes the first w bytes of p :: r for the rune c" (RFC 3629, section 4): the bytes carry the
   base-64 digits of c behind their tag bits, and c lies where w bytes are needed and allowed - 0x80..0x7FF,
   0x800..0xFFFF without the surrogates 0xD800..0xDFFF, 0x10000..0x10FFFF - which the last premise says of c
   without its last digit (w = 2, 3) or last two (w = 4): 2 = 0x80/64 and 32 = 0x800/64; 864 = 0xD800/64,
   896 = 0xE000/64 and 1024 = 0x10000/64; 16 = 0x10000/4096 and 272 = 0x110000/4096.  Go's table says it by narrowing the first continuation
   byte after E0 (A0..BF), ED (80..9F), F0 (90..BF) and F4 (80..8F) and by having no lead bytes C0, C1, F5..FF. *)
Inductive accepts (p : byte) : bytes -> N * nat -> Prop :=
| acc1 r : b2n p < 128 -> accepts p r (b2n p, 1%nat)
| acc2 a d b1 r : b2n p = 192 + a -> cont b1 d -> 2 <= a < 32 -> accepts p (b1 :: r) (a * 64 + d, 2%nat)
| acc3 a d1 d2 b1 b2 r : b2n p = 224 + a -> cont b1 d1 -> cont b2 d2 ->
    32 <= a * 64 + d1 < 864 \/ 896 <= a * 64 + d1 < 1024 ->
    accepts p (b1 :: b2 :: r) ((a * 64 + d1) * 64 + d2, 3%nat)
| acc4 a d1 d2 d3 b1 b2 b3 r : b2n p = 240 + a -> cont b1 d1 -> cont b2 d2 -> cont b3 d3 ->
    16 <= a * 64 + d1 < 272 ->
    accepts p (b1 :: b2 :: b3 :: r) (((a * 64 + d1) * 64 + d2) * 64 + d3, 4%nat).

Lemma is_cont_cont b : is_cont b = true -> cont b (b2n b - 128).
Proof. unfold is_cont, cont. lia. Qed.

Lemma cont_ge b d : cont b d -> 128 <= b2n b.
Proof. intros [-> _]. apply N.le_add_r. Qed.

Lemma horner3 a b c : a * 4096 + b * 64 + c = (a * 64 + b) * 64 + c.
Proof. ring. Qed.
Lemma horner4 a b c d : a * 262144 + b * 4096 + c * 64 + d = ((a * 64 + b) * 64 + c) * 64 + d.
Proof. ring. Qed.

(* lets lia use a bound that depends on the lead byte *)
Lemma if_eqb (n k x y : N) : n = k /\ (if n =? k then x else y) = x \/ n <> k /\ (if n =? k then x else y) = y.
Proof. destruct (N.eqb_spec n k); auto. Qed.

(* whatever is not accepted is a stray byte *)
Lemma decode_cases p r :
  accepts p r (decode_rune (p :: r)) \/ decode_rune (p :: r) = (RuneError, 1%nat).
Proof.
  unfold decode_rune.
  destruct (N.ltb_spec (b2n p) 128) as [H|H]; [left; apply acc1, H|].
  (* [E] closes every branch in which the decoder gives up *)
  assert (E : forall A : Prop, A \/ (RuneError, 1%nat) = (RuneError, 1%nat)) by auto.
  destruct (N.ltb_spec (b2n p) 194); [apply E|].
  destruct (N.ltb_spec (b2n p) 224).
  { destruct r as [|b1 r]; [apply E|]. destruct (is_cont b1) eqn:C1; [left|apply E].
    apply acc2; [lia|apply is_cont_cont, C1|lia]. }
  destruct (N.ltb_spec (b2n p) 240).
  { destruct r as [|b1 [|b2 r]]; try apply E.
    destruct (in_nrng _ _ b1) eqn:C1; [|apply E]. destruct (is_cont b2) eqn:C2; [left|apply E].
    unfold in_nrng in C1. pose proof (if_eqb (b2n p) 224 160 128). pose proof (if_eqb (b2n p) 237 159 191).
    rewrite horner3. apply acc3; [lia|unfold cont; lia|apply is_cont_cont, C2|lia]. }
  destruct (N.ltb_spec (b2n p) 245); [|apply E].
  destruct r as [|b1 [|b2 [|b3 r]]]; try apply E.
  destruct (in_nrng _ _ b1) eqn:C1; [|apply E]. destruct (is_cont b2) eqn:C2; [|apply E].
  destruct (is_cont b3) eqn:C3; [left|apply E].
  unfold in_nrng in C1. pose proof (if_eqb (b2n p) 240 144 128). pose proof (if_eqb (b2n p) 244 143 191).
  rewrite horner4. apply acc4; [lia|unfold cont; lia|apply is_cont_cont, C2|apply is_cont_cont, C3|lia].
Qed.

Lemma add_sub_l k a : k + a - k = a.
Proof. lia. Qed.

Lemma accepts_decode p r x : accepts p r x -> decode_rune (p :: r) = x.
Proof.
  destruct 1 as [r H|a d b1 r Hp [E1 L1] Ha|a d1 d2 b1 b2 r Hp [E1 L1] [E2 L2] Ha
                |a d1 d2 d3 b1 b2 b3 r Hp [E1 L1] [E2 L2] [E3 L3] Ha];
    unfold decode_rune, in_nrng, is_cont.
  (* the tests on the lead byte fail up to the right branch; there, with the bytes written by their digits,
     the tests on the continuation bytes are linear arithmetic *)
  - rewrite if_true by lia. reflexivity.
  - rewrite !if_false, if_true by lia. rewrite Hp, E1, !add_sub_l, if_true by lia. reflexivity.
  - rewrite !if_false, if_true by lia. rewrite Hp, E1, E2, !add_sub_l.
    pose proof (if_eqb (224 + a) 224 160 128). pose proof (if_eqb (224 + a) 237 159 191).
    rewrite if_true, horner3 by lia. reflexivity.
  - rewrite !if_false, if_true by lia. rewrite Hp, E1, E2, E3, !add_sub_l.
    pose proof (if_eqb (240 + a) 240 144 128). pose proof (if_eqb (240 + a) 244 143 191).
    rewrite if_true, horner4 by lia. reflexivity.
Qed.

Lemma decode_width_pos s : s <> [] -> (1 <= snd (decode_rune s) <= length s)%nat.
Proof.
  destruct s as [|p r]; [congruence|]. intros _.
  destruct (decode_cases p r) as [A| ->]; [destruct A|]; simpl; lia.
Qed.

Lemma decode_nonascii p0 r : 128 <= b2n p0 -> 128 <= fst (decode_rune (p0 :: r)).
Proof. intro H. destruct (decode_cases p0 r) as [A| ->]; [destruct A|]; cbn [fst]; unfold RuneError; lia. Qed.

Lemma decode_ascii p0 r : b2n p0 < 128 -> decode_rune (p0 :: r) = (b2n p0, 1%nat).
Proof. intro H. apply accepts_decode, acc1, H. Qed.

Lemma decode_skipped_nonascii s :
  forall i b, (1 <= i < snd (decode_rune s))%nat -> nth_error s i = Some b -> 128 <= b2n b.
Proof.
  destruct s as [|p r]; [simpl; lia|]. intros i b.
  destruct (decode_cases p r) as [A| ->]; [destruct A|]; cbn [snd]; intros Hi Hn.
  (* i is one of 1, .., width - 1, and there stands a continuation byte; the other values of i go by lia, which
     reads the whole context: cleared first *)
  all: destruct i as [|[|[|[|i]]]]; try (exfalso; clear - Hi; lia); injection Hn as <-; eapply cont_ge; eassumption.
Qed.

(* runes_from with enough fuel, as an induction principle: no proof below goes by induction on the fuel *)
Lemma runes_from_ind (P : nat -> bytes -> list (nat * N) -> Prop) :
  (forall pos, P pos [] []) ->
  (forall pos p r c w l, decode_rune (p :: r) = (c, w) -> (1 <= w <= length (p :: r))%nat ->
     P (w + pos)%nat (skipn w (p :: r)) l -> P pos (p :: r) ((pos, c) :: l)) ->
  forall f pos s, (length s <= f)%nat -> P pos s (runes_from f pos s).
Proof.
  intros Hnil Hcons. induction f as [|f IH]; intros pos s Hl.
  - destruct s; [apply Hnil|simpl in Hl; lia].
  - destruct s as [|p r]; [apply Hnil|]. cbn [runes_from].
    pose proof (decode_width_pos (p :: r) ltac:(discriminate)) as W.
    destruct (decode_rune (p :: r)) as [c w] eqn:D. cbn [snd] in W.
    apply (Hcons _ _ _ _ w); [exact D|exact W|]. apply IH. rewrite skipn_length. lia.
Qed.

(* p is "ASCII-only" when it rejects every rune >= 0x80 (RuneError included): a range-over-string loop that tests
   its runes with p is then a loop over the bytes *)
Definition ascii_only (p : N -> bool) : Prop := forall r, 128 <= r -> p r = false.

Lemma forallb_runes_from (p : N -> bool) : ascii_only p ->
  forall f pos s, (length s <= f)%nat ->
  forallb p (map snd (runes_from f pos s)) = forallb (fun b => p (b2n b)) s.
Proof.
  intro Hp. apply (runes_from_ind (fun _ s l => forallb p (map snd l) = forallb (fun b => p (b2n b)) s)).
  - reflexivity.
  - intros pos p0 r c w l D _ IH. cbn [map forallb snd]. destruct (N.lt_ge_cases (b2n p0) 128) as [H|H].
    + rewrite decode_ascii in D by exact H. injection D as <- <-. rewrite IH. reflexivity.
    + pose proof (decode_nonascii p0 r H) as Hc. rewrite D in Hc. rewrite (Hp c Hc), (Hp _ H). reflexivity.
Qed.

Lemma forallb_runes (p : N -> bool) : ascii_only p ->
  forall s, forallb p (runes s) = forallb (fun b => p (b2n b)) s.
Proof. intros Hp s. apply (forallb_runes_from p Hp), le_n. Qed.

(* positions at which an ASCII-only predicate holds: by runes = by bytes *)
Fixpoint byte_hits (q : N -> bool) (pos : nat) (s : bytes) : list nat :=
  match s with
  | [] => []
  | b :: r => if q (b2n b) then pos :: byte_hits q (S pos) r else byte_hits q (S pos) r
  end.

Lemma byte_hits_app q pos l r :
  byte_hits q pos (l ++ r) = byte_hits q pos l ++ byte_hits q (pos + length l) r.
Proof.
  revert pos. induction l as [|b l IH]; intro pos; cbn [app byte_hits length].
  - rewrite Nat.add_0_r. reflexivity.
  - rewrite IH, Nat.add_succ_comm. destruct (q (b2n b)); reflexivity.
Qed.

Lemma byte_hits_existsb q pos s :
  existsb (fun b => q (b2n b)) s = negb (match byte_hits q pos s with [] => true | _ => false end).
Proof.
  revert pos. induction s as [|b r IH]; intro pos; [reflexivity|]. cbn [existsb byte_hits].
  destruct (q (b2n b)); [reflexivity|]. apply IH.
Qed.

Lemma byte_hits_skip q (w : nat) : forall pos (s : bytes),
  (w <= length s)%nat ->
  (forall i b, (i < w)%nat -> nth_error s i = Some b -> q (b2n b) = false) ->
  byte_hits q pos s = byte_hits q (w + pos) (skipn w s).
Proof.
  induction w as [|w IH]; intros pos s Hl H.
  - reflexivity.
  - destruct s as [|b r]; [simpl in Hl; lia|].
    cbn [byte_hits skipn]. rewrite (H 0%nat b) by (simpl; auto; lia).
    replace (S w + pos)%nat with (w + S pos)%nat by lia.
    apply IH; [simpl in Hl; lia|]. intros i b' Hi Hn. apply (H (S i) b'); [lia|exact Hn].
Qed.

Lemma rune_hits (q : N -> bool) : ascii_only q ->
  forall f pos s, (length s <= f)%nat ->
  map fst (filter (fun x => q (snd x)) (runes_from f pos s)) = byte_hits q pos s.
Proof.
  intro Hq. apply (runes_from_ind (fun pos s l => map fst (filter (fun x => q (snd x)) l) = byte_hits q pos s)).
  - reflexivity.
  - intros pos p0 r c w l D W IH. cbn [filter snd]. destruct (N.lt_ge_cases (b2n p0) 128) as [H|H].
    + rewrite decode_ascii in D by exact H. injection D as <- <-. cbn [byte_hits].
      destruct (q (b2n p0)); cbn [map fst]; rewrite IH; reflexivity.
    + pose proof (decode_nonascii p0 r H) as Hc. pose proof (decode_skipped_nonascii (p0 :: r)) as Hs.
      rewrite D in Hc, Hs. rewrite (Hq c Hc), IH. symmetry. apply byte_hits_skip; [lia|].
      intros i b Hi Hn. apply Hq. destruct i as [|i]; [injection Hn as <-; exact H|].
      apply (Hs (S i) b); [cbn [snd]; lia|exact Hn].
Qed.
