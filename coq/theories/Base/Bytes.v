(* Go strings as lists of bytes; the result monad with an explicit Panic; finite sweeps over the 256 byte values.
   First come the general facts about booleans and lists that the development uses and the standard library (8.16)
   does not have. *)
From Coq Require Export List NArith ZArith Bool Arith Lia.
From Coq Require Export Strings.Byte.
Export ListNotations.

Lemma if_true {A} (b : bool) (u v : A) : b = true -> (if b then u else v) = u.
Proof. now intros ->. Qed.
Lemma if_false {A} (b : bool) (u v : A) : b = false -> (if b then u else v) = v.
Proof. now intros ->. Qed.

Lemma if_some {A} (c : bool) (x y : A) : (if c then Some x else None) = Some y -> c = true /\ x = y.
Proof. destruct c; [intro H; inversion H; auto | discriminate]. Qed.

Lemma leb_add_l n a b : Nat.leb (n + a) (n + b) = Nat.leb a b.
Proof. induction n; [reflexivity|exact IHn]. Qed.

Lemma forallb_ext {A} (f g : A -> bool) l : (forall x, f x = g x) -> forallb f l = forallb g l.
Proof. intro H. induction l as [|x l IH]; simpl; [reflexivity|]. rewrite H, IH. reflexivity. Qed.

Lemma existsb_ext {A} (f g : A -> bool) l : (forall x, f x = g x) -> existsb f l = existsb g l.
Proof. intro H. induction l as [|x l IH]; simpl; [reflexivity|]. rewrite H, IH. reflexivity. Qed.

Lemma forallb_andb {A} (f g : A -> bool) l : forallb (fun x => f x && g x) l = forallb f l && forallb g l.
Proof.
  induction l as [|x l IH]; [reflexivity|]. cbn [forallb]. rewrite IH.
  destruct (f x), (g x), (forallb f l); reflexivity.
Qed.

Lemma forallb_Forall {A} (f : A -> bool) (P : A -> Prop) l :
  (forall x, f x = true <-> P x) -> forallb f l = true <-> Forall P l.
Proof. intro H. rewrite forallb_forall, Forall_forall. split; intros F x I; apply H, F, I. Qed.

Lemma forallb_last {A} (f : A -> bool) l d : l <> [] -> forallb f l = true -> f (last l d) = true.
Proof.
  intros N H. rewrite (app_removelast_last d N), forallb_app in H.
  apply andb_true_iff in H as [_ H]. cbn in H. rewrite andb_true_r in H. exact H.
Qed.

Lemma last_cons {A} (a : A) l d : last (a :: l) d = last l a.
Proof.
  revert a d. induction l as [|b l IH]; intros a d; [reflexivity|].
  change (last (a :: b :: l) d) with (last (b :: l) d). rewrite !IH. reflexivity.
Qed.

Lemma last_indep {A} (l : list A) d d' : l <> [] -> last l d = last l d'.
Proof. destruct l; [congruence|]. rewrite !last_cons. reflexivity. Qed.

Lemma last_app_cons {A} (l : list A) a r d : last (l ++ a :: r) d = last r a.
Proof. revert d. induction l as [|b l IH]; intro d; cbn [app]; rewrite last_cons; [reflexivity|apply IH]. Qed.

Lemma nth_error_last {A} (a : A) l : nth_error (a :: l) (length l) = Some (last l a).
Proof. revert a. induction l as [|b l IH]; intro a; [reflexivity|]. rewrite last_cons. apply IH. Qed.

Lemma firstn_length_app {A} (l r : list A) : firstn (length l) (l ++ r) = l.
Proof. induction l as [|a l IH]; [reflexivity|]. simpl. rewrite IH. reflexivity. Qed.

Lemma skipn_length_app {A} (l r : list A) n : skipn (length l + n) (l ++ r) = skipn n r.
Proof. induction l as [|a l IH]; [reflexivity|exact IH]. Qed.

Lemma existsb_false {A} (p : A -> bool) l x : existsb p l = false -> In x l -> p x = false.
Proof.
  intros E Hx. apply not_true_iff_false. intro Px. apply not_true_iff_false in E. apply E, existsb_exists. eauto.
Qed.

Lemma forallb_false {A} (p : A -> bool) l x : In x l -> p x = false -> forallb p l = false.
Proof.
  intros Hx Px. apply not_true_iff_false. intro E. rewrite forallb_forall in E. rewrite (E x Hx) in Px. discriminate.
Qed.

Lemma flat_map_nil {A B} (f : A -> list B) l : (forall x, f x = []) -> flat_map f l = [].
Proof. intro H. induction l as [|x l IH]; [reflexivity|]. cbn [flat_map]. rewrite H. exact IH. Qed.

Lemma combine_map_r {A B} (f : A -> B) l : combine l (map f l) = map (fun x => (x, f x)) l.
Proof. induction l as [|x l IH]; [reflexivity|]. cbn. rewrite IH. reflexivity. Qed.

Lemma NoDup_map_transfer {A K N} (k : A -> K) (g : A -> N) (l : list A) :
  (forall x y, In x l -> In y l -> g x = g y -> k x = k y) -> NoDup (map k l) -> NoDup (map g l).
Proof.
  induction l as [|a l IH]; intros Inj H; [constructor|]. inversion H as [|? ? Na Nl]; subst.
  constructor.
  - intro X. apply in_map_iff in X as (b & Hb & Ib). apply Na. apply in_map_iff. exists b. split; [|exact Ib].
    apply Inj; [right; exact Ib|left; reflexivity|exact Hb].
  - apply IH; [|exact Nl]. intros x y Hx Hy. apply Inj; right; assumption.
Qed.

Lemma flat_map_map_Forall {A B C} (h : A -> B) (f : B -> list C) (g : A -> list C) l :
  Forall (fun x => f (h x) = g x) l -> flat_map f (map h l) = flat_map g l.
Proof. induction 1 as [|x l E _ IH]; [reflexivity|]. cbn [map flat_map]. rewrite E, IH. reflexivity. Qed.

Definition bytes := list byte.

Definition b2n (b : byte) : N := Byte.to_N b.

Lemma b2n_inj a b : b2n a = b2n b -> a = b.
Proof.
  unfold b2n; intro H.
  pose proof (Byte.of_to_N a) as Ha. pose proof (Byte.of_to_N b) as Hb.
  congruence.
Qed.

Lemma b2n_bounded b : (b2n b <= 255)%N.
Proof. apply Byte.to_N_bounded. Qed.

(* the result of running a piece of Go: a value, or a run-time panic *)
Inductive res (A : Type) : Type :=
| Ok (a : A)
| Panic.
Arguments Ok {A} a.
Arguments Panic {A}.

Definition bind {A B} (r : res A) (f : A -> res B) : res B :=
  match r with Ok a => f a | Panic => Panic end.
Notation "x <- e1 ;; e2" := (bind e1 (fun x => e2))
  (at level 61, e1 at next level, right associativity).

(* [injection] would also reduce both sides *)
Lemma Ok_inj {A} (a b : A) : Ok a = Ok b -> a = b.
Proof. congruence. Qed.

(* s[i] : panics when out of range, like Go *)
Definition idx (s : bytes) (i : nat) : res byte :=
  match nth_error s i with Some b => Ok b | None => Panic end.

(* Go's short-circuit && and || on computations that may panic *)
Definition andr (a : res bool) (b : res bool) : res bool :=
  x <- a ;; if x then b else Ok false.
Definition orr (a : res bool) (b : res bool) : res bool :=
  x <- a ;; if x then Ok true else b.

Lemma andr_Ok a b : andr (Ok a) (Ok b) = Ok (a && b).
Proof. destruct a; reflexivity. Qed.

Lemma orr_Ok a b : orr (Ok a) (Ok b) = Ok (a || b).
Proof. destruct a; reflexivity. Qed.

Lemma idx_lt s i : i < length s -> exists b, idx s i = Ok b /\ nth_error s i = Some b.
Proof.
  intro H. unfold idx. destruct (nth_error s i) eqn:E.
  - eauto.
  - apply nth_error_None in E. lia.
Qed.

Lemma idx_ge s i : length s <= i -> idx s i = Panic.
Proof. intro H. unfold idx. apply nth_error_None in H. rewrite H. reflexivity. Qed.

Lemma idx_app_right (a b : bytes) k : idx (a ++ b) (length a + k) = idx b k.
Proof.
  unfold idx. rewrite nth_error_app2 by lia. replace (length a + k - length a) with k by lia. reflexivity.
Qed.

Lemma idx_last (s : bytes) : s <> [] -> idx s (length s - 1) = Ok (last s x00).
Proof.
  destruct s as [|a s]; [congruence|]. intros _.
  cbn [length]. rewrite Nat.sub_succ, Nat.sub_0_r, last_cons. unfold idx. rewrite nth_error_last. reflexivity.
Qed.

Definition last_byte (s : bytes) : res byte :=
  match s with [] => Panic | _ => idx s (length s - 1) end.

Definition beq (a b : byte) : bool := Byte.eqb a b.
Definition ble (a b : byte) : bool := N.leb (b2n a) (b2n b).
Definition blt (a b : byte) : bool := N.ltb (b2n a) (b2n b).
Definition in_rng (lo hi c : byte) : bool := ble lo c && ble c hi.

Lemma beq_eq a b : beq a b = true <-> a = b.
Proof. split; [apply Byte.byte_dec_bl|apply Byte.byte_dec_lb]. Qed.

Lemma beq_refl a : beq a a = true.
Proof. apply beq_eq; reflexivity. Qed.

Lemma beq_neq a b : beq a b = false <-> a <> b.
Proof. rewrite <- beq_eq. symmetry. apply not_true_iff_false. Qed.

Lemma b2n_eqb a b : N.eqb (b2n a) (b2n b) = beq a b.
Proof.
  destruct (beq a b) eqn:E.
  - apply beq_eq in E as ->. apply N.eqb_refl.
  - apply beq_neq in E. apply N.eqb_neq. intro H. apply E, b2n_inj, H.
Qed.

Fixpoint bytes_eqb (a b : bytes) : bool :=
  match a, b with
  | [], [] => true
  | x :: a', y :: b' => beq x y && bytes_eqb a' b'
  | _, _ => false
  end.

Lemma bytes_eqb_eq a b : bytes_eqb a b = true <-> a = b.
Proof.
  revert b; induction a as [|x a IH]; intros [|y b]; simpl; split; intro H;
    try reflexivity; try discriminate.
  - apply andb_true_iff in H as [H1 H2]. apply beq_eq in H1. apply IH in H2. congruence.
  - inversion H; subst. rewrite beq_refl. apply IH. reflexivity.
Qed.

Lemma bytes_eqb_refl a : bytes_eqb a a = true.
Proof. apply bytes_eqb_eq; reflexivity. Qed.

Lemma bytes_eqb_neq a b : bytes_eqb a b = false <-> a <> b.
Proof. rewrite <- bytes_eqb_eq. symmetry. apply not_true_iff_false. Qed.

Lemma bytes_eqb_map (f : byte -> byte) t :
  Forall (fun k => forall a, beq (f a) k = beq a k) t ->
  forall s, bytes_eqb (map f s) t = bytes_eqb s t.
Proof.
  induction 1 as [|k t Hk _ IH]; intros [|a s]; cbn [map bytes_eqb]; try reflexivity.
  rewrite Hk, IH. reflexivity.
Qed.

Lemma existsb_bytes_eqb x l : existsb (bytes_eqb x) l = true <-> In x l.
Proof.
  rewrite existsb_exists. split.
  - intros (y & Hy & ->%bytes_eqb_eq). exact Hy.
  - intro H. exists x. split; [exact H|apply bytes_eqb_refl].
Qed.

Definition all_bytes : list byte :=
  flat_map (fun n => match Byte.of_N (N.of_nat n) with Some b => [b] | None => [] end)
           (seq 0 256).

Lemma all_bytes_complete (b : byte) : In b all_bytes.
Proof.
  apply in_flat_map. exists (N.to_nat (b2n b)). split.
  - apply in_seq. pose proof (b2n_bounded b). lia.
  - rewrite N2Nat.id, Byte.of_to_N. left. reflexivity.
Qed.

Lemma byte_sweep (P : byte -> bool) :
  forallb P all_bytes = true -> forall b, P b = true.
Proof.
  intros H b. rewrite forallb_forall in H. apply H. apply all_bytes_complete.
Qed.

Lemma byte_sweep2 (P : byte -> byte -> bool) :
  forallb (fun a => forallb (P a) all_bytes) all_bytes = true -> forall a b, P a b = true.
Proof.
  intros H a b.
  pose proof (byte_sweep _ H a) as Ha.
  exact (byte_sweep _ Ha b).
Qed.

(* The same sweep with the bytes enumerated through their eight bits, for the byte-class facts of the recognizers:
   under [byte_sweep] coqchk evaluates [all_bytes] ([seq], and [N.of_nat] on unary numerals) afresh at every use,
   which costs several times the 256 tests themselves. *)
Definition both (f : bool -> bool) : bool := f true && f false.

Definition every_byte (P : byte -> bool) : bool :=
  both (fun b0 => both (fun b1 => both (fun b2 => both (fun b3 =>
  both (fun b4 => both (fun b5 => both (fun b6 => both (fun b7 =>
    P (Byte.of_bits (b0, (b1, (b2, (b3, (b4, (b5, (b6, b7)))))))))))))))).

Lemma both_spec f : both f = true -> forall b, f b = true.
Proof. intros H b. apply andb_true_iff in H. destruct b; apply H. Qed.

Lemma every_byte_spec P : every_byte P = true -> forall b, P b = true.
Proof.
  intros H b. rewrite <- (Byte.of_bits_to_bits b).
  destruct (Byte.to_bits b) as (b0 & b1 & b2 & b3 & b4 & b5 & b6 & b7).
  exact (both_spec _ (both_spec _ (both_spec _ (both_spec _ (both_spec _ (both_spec _
          (both_spec _ (both_spec _ H b0) b1) b2) b3) b4) b5) b6) b7).
Qed.

Lemma byte_ext (f g : byte -> bool) :
  every_byte (fun c => Bool.eqb (f c) (g c)) = true -> forall c, f c = g c.
Proof. intros H c. apply Bool.eqb_prop. exact (every_byte_spec _ H c). Qed.

(* the ASCII constants of the recognizers *)
Local Open Scope byte_scope.
Definition c_hyphen : byte := "-".
Definition c_dot : byte := ".".
Definition c_at : byte := "@".
Definition c_colon : byte := ":".
Definition c_slash : byte := "/".
Definition c_space : byte := " ".
Definition c_0 : byte := "0".
Definition c_1 : byte := "1".
Definition c_5 : byte := "5".
Definition c_8 : byte := "8".
Definition c_9 : byte := "9".
Definition c_a : byte := "a".
Definition c_b : byte := "b".
Definition c_f : byte := "f".
Definition c_z : byte := "z".
Definition c_A : byte := "A".
Definition c_B : byte := "B".
Definition c_F : byte := "F".
Definition c_Z : byte := "Z".
Definition c_lbrack : byte := "[".
Definition c_plus : byte := "+".
Definition c_del : byte := x7f.
Local Close Scope byte_scope.

Definition is_digit (c : byte) : bool := in_rng c_0 c_9 c.
Definition is_lower (c : byte) : bool := in_rng c_a c_z c.
Definition is_upper (c : byte) : bool := in_rng c_A c_Z c.
Definition is_letter (c : byte) : bool := is_lower c || is_upper c.
Definition is_alnum (c : byte) : bool := is_letter c || is_digit c.

(* byte-string literals *)
From Coq Require Strings.String.
Export Coq.Strings.String.StringSyntax.
Delimit Scope string_scope with string.
Bind Scope string_scope with String.string.
Definition bs (s : String.string) : bytes := String.list_byte_of_string s.
