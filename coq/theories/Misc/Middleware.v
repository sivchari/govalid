(* validation/middleware/middleware.go: both handlers as functions of what json.Decoder.Decode and
   the body's Validate / ValidateContext return (oracles for encoding/json and for the validator). *)
From GV Require Import Base.Bytes.

(* what body.Validate() / body.ValidateContext(ctx) returned *)
Inductive verr :=
| VOk                                   (* nil *)
| VFail (msg : bytes) (is_ctx : bool).  (* err.Error(); errors.Is(err, Canceled) || errors.Is(err, DeadlineExceeded) *)

Record response := { status : nat; body : bytes; next_called : bool }.

Definition nl : byte := x0a.
Definition invalid_json : bytes := bs "Invalid JSON" ++ [nl].                (* http.Error appends a newline *)
Definition validation_error (msg : bytes) : bytes := bs "Validation error: " ++ msg ++ [nl].

Section Handlers.
  Variable T : Type.
  Variable decode : bytes -> option T.          (* json.NewDecoder(r.Body).Decode(&body) == nil *)
  Variable next_body : bytes.                   (* whatever the wrapped handler writes; its status is not modelled: 200 stands for "next ran" *)

  (* ValidateRequest[T] *)
  Definition ValidateRequest (validate : T -> verr) (b : bytes) : response :=
    match decode b with
    | None => {| status := 400; body := invalid_json; next_called := false |}
    | Some x =>
        match validate x with
        | VFail msg _ => {| status := 400; body := validation_error msg; next_called := false |}
        | VOk => {| status := 200; body := next_body; next_called := true |}
        end
    end.

  (* ValidateRequestContext[T] *)
  Definition ValidateRequestContext (validate_ctx : T -> verr) (b : bytes) : response :=
    match decode b with
    | None => {| status := 400; body := invalid_json; next_called := false |}
    | Some x =>
        match validate_ctx x with
        | VFail msg is_ctx => {| status := if is_ctx then 408 else 400; body := validation_error msg; next_called := false |}
        | VOk => {| status := 200; body := next_body; next_called := true |}
        end
    end.

  (* C20.  The handlers differ only in status codes: both are [handle], with [bad] for a body that is not JSON,
     [code c] for a validation failure and [ok] for a request let through.  The codes stay variables in the lemmas
     (a tactic that walks a goal pays for every S of 400); the numerals enter in [plain_handled], [ctx_handled]. *)
  Definition handle (bad ok : nat) (code : bool -> nat) (validate : T -> verr) (b : bytes) : response :=
    match decode b with
    | None => {| status := bad; body := invalid_json; next_called := false |}
    | Some x =>
        match validate x with
        | VFail msg c => {| status := code c; body := validation_error msg; next_called := false |}
        | VOk => {| status := ok; body := next_body; next_called := true |}
        end
    end.

  (* the three ways a response arises *)
  Inductive handled (bad ok : nat) (code : bool -> nat) (validate : T -> verr) (b : bytes) : response -> Prop :=
  | h_json : decode b = None ->
      handled bad ok code validate b {| status := bad; body := invalid_json; next_called := false |}
  | h_fail x msg c : decode b = Some x -> validate x = VFail msg c ->
      handled bad ok code validate b {| status := code c; body := validation_error msg; next_called := false |}
  | h_next x : decode b = Some x -> validate x = VOk ->
      handled bad ok code validate b {| status := ok; body := next_body; next_called := true |}.

  Lemma handle_handled bad ok code validate b : handled bad ok code validate b (handle bad ok code validate b).
  Proof. unfold handle. destruct (decode b) as [x|] eqn:D; [destruct (validate x) eqn:V|]; econstructor; eassumption. Qed.

  Lemma plain_handled validate b : handled 400 200 (fun _ => 400) validate b (ValidateRequest validate b).
  Proof. exact (handle_handled _ _ _ validate b). Qed.

  Lemma ctx_handled validate_ctx b :
    handled 400 200 (fun c => if c then 408 else 400) validate_ctx b (ValidateRequestContext validate_ctx b).
  Proof. exact (handle_handled _ _ _ validate_ctx b). Qed.

  Lemma handled_next bad ok code validate b r : handled bad ok code validate b r ->
    (next_called r = true <-> exists x, decode b = Some x /\ validate x = VOk).
  Proof.
    intros [D|x msg c D V|x D V]; simpl; (split; [intro N|intros (y & E & V')]); try congruence; eauto.
  Qed.

  Lemma handled_rejected bad ok code validate b r : handled bad ok code validate b r -> next_called r = false ->
    (decode b = None /\ status r = bad /\ body r = invalid_json) \/
    exists x msg c, decode b = Some x /\ validate x = VFail msg c /\ status r = code c /\ body r = validation_error msg.
  Proof. intros [D|x msg c D V|x D V] N; [left; auto|right; exists x, msg, c; auto|discriminate N]. Qed.

  (* when every rejection has the status [bad], the status can be stated first *)
  Lemma handled_rejected_const bad ok validate b r :
    handled bad ok (fun _ => bad) validate b r -> next_called r = false ->
    status r = bad /\
    (decode b = None /\ body r = invalid_json \/
     exists x msg c, decode b = Some x /\ validate x = VFail msg c /\ body r = validation_error msg).
  Proof.
    intros [D|x msg c D V|x D V] N; [| |discriminate N]; (split; [reflexivity|]); [left; auto|right; exists x, msg, c; auto].
  Qed.

  Lemma handled_fail bad ok code validate b r x msg c : handled bad ok code validate b r ->
    decode b = Some x -> validate x = VFail msg c -> status r = code c /\ next_called r = false.
  Proof.
    intros [D|y msg' c' D V|y D V] D' V'; try congruence. replace c' with c by congruence. split; reflexivity.
  Qed.

  Lemma handled_next_ok bad ok code validate b r : handled bad ok code validate b r -> next_called r = true -> status r = ok.
  Proof. intros []; [discriminate..|reflexivity]. Qed.

  Theorem next_iff validate b :
    next_called (ValidateRequest validate b) = true <-> exists x, decode b = Some x /\ validate x = VOk.
  Proof. exact (handled_next _ _ _ _ _ _ (plain_handled validate b)). Qed.

  Theorem next_iff_ctx validate_ctx b :
    next_called (ValidateRequestContext validate_ctx b) = true <-> exists x, decode b = Some x /\ validate_ctx x = VOk.
  Proof. exact (handled_next _ _ _ _ _ _ (ctx_handled validate_ctx b)). Qed.

  (* otherwise: 400 (or 408 for a context error in the context-aware variant), with the message, handler not called *)
  Theorem rejected validate b :
    next_called (ValidateRequest validate b) = false ->
    status (ValidateRequest validate b) = 400 /\
    (decode b = None /\ body (ValidateRequest validate b) = invalid_json \/
     exists x msg c, decode b = Some x /\ validate x = VFail msg c /\ body (ValidateRequest validate b) = validation_error msg).
  Proof. exact (handled_rejected_const _ _ _ _ _ (plain_handled validate b)). Qed.

  Theorem rejected_ctx validate_ctx b :
    next_called (ValidateRequestContext validate_ctx b) = false ->
    (decode b = None /\ status (ValidateRequestContext validate_ctx b) = 400 /\ body (ValidateRequestContext validate_ctx b) = invalid_json) \/
    exists x msg c, decode b = Some x /\ validate_ctx x = VFail msg c /\
                    status (ValidateRequestContext validate_ctx b) = (if c then 408 else 400) /\
                    body (ValidateRequestContext validate_ctx b) = validation_error msg.
  Proof. exact (handled_rejected _ _ _ _ _ _ (ctx_handled validate_ctx b)). Qed.

  (* a validator honouring the context contract (C15: a done context yields ctx.Err()) gives 408 *)
  Theorem cancelled_gives_408 validate_ctx b x msg :
    decode b = Some x -> validate_ctx x = VFail msg true ->
    status (ValidateRequestContext validate_ctx b) = 408 /\ next_called (ValidateRequestContext validate_ctx b) = false.
  Proof. exact (handled_fail _ _ _ _ _ _ _ _ _ (ctx_handled validate_ctx b)). Qed.

  (* the handler is never called together with an error status *)
  Theorem never_both validate_ctx b :
    next_called (ValidateRequestContext validate_ctx b) = true -> status (ValidateRequestContext validate_ctx b) = 200.
  Proof. exact (handled_next_ok _ _ _ _ _ _ (ctx_handled validate_ctx b)). Qed.
End Handlers.

(* entry point for the extracted driver: the oracles' answers are given explicitly *)
Definition mw_eval (ctx_variant : bool) (decoded : bool) (v : verr) (next_body : bytes) : response :=
  let dec := fun (_ : bytes) => if decoded then Some tt else None in
  if ctx_variant then ValidateRequestContext unit dec next_body (fun _ => v) []
  else ValidateRequest unit dec next_body (fun _ => v) [].
