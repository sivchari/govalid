(* C18: `migrate` changes nothing but the prefix of legacy marker comment lines. Facts about one line
   come from migrate_line_cases, are lifted to the list of lines, and reach file contents through
   split_migrate; the second half shows that the generator does not see the spelling. *)
From GV Require Import Base.Bytes Base.StrOps Gen.Decl Misc.Migrate.

Lemma fold_step_line l : fold_left step l SLine = SLine.
Proof. induction l as [|c l IH]; [reflexivity|exact IH]. Qed.

Lemma scan_comment_line p rest : has_prefix (bs "//") p = true -> fold_left step (p ++ rest) SCode = SLine.
Proof.
  intro H. apply has_prefix_iff in H as [r ->]. apply fold_step_line.
Qed.

Lemma blank_not_special c : is_blank c = true -> step SCode c = SCode.
Proof.
  unfold is_blank. rewrite orb_true_iff, !beq_eq. intros [->| ->]; reflexivity.
Qed.

Lemma scan_blanks_then l : fold_left step l SCode = fold_left step (trim_left_blanks l) SCode.
Proof.
  induction l as [|c l IH]; [reflexivity|]. cbn [trim_left_blanks].
  destruct (is_blank c) eqn:B; [|reflexivity].
  cbn [fold_left]. rewrite blank_not_special by exact B. exact IH.
Qed.

Lemma leading_blanks_blank l : Forall (fun c => is_blank c = true) (leading_blanks l).
Proof.
  induction l as [|c l IH]; simpl; [constructor|]. destruct (is_blank c) eqn:B; [constructor; assumption|constructor].
Qed.

Lemma trim_comment indent p rest :
  Forall (fun c => is_blank c = true) indent -> has_prefix (bs "//") p = true ->
  trim_left_blanks (indent ++ p ++ rest) = p ++ rest.
Proof.
  intros B H. apply has_prefix_iff in H as [r ->].
  induction B as [|c indent Bc _ IH]; [reflexivity|]. cbn [app trim_left_blanks]. rewrite Bc. exact IH.
Qed.

Lemma scan_comment indent p rest :
  Forall (fun c => is_blank c = true) indent -> has_prefix (bs "//") p = true ->
  scan_line SCode (indent ++ p ++ rest) = SCode.
Proof.
  intros B H. unfold scan_line. rewrite scan_blanks_then, (trim_comment _ _ _ B H), (scan_comment_line _ _ H). reflexivity.
Qed.

(* a line is left alone, or it is an indented legacy marker comment scanned in code state, and
   only its prefix changes: every fact about [migrate_line] comes from this case analysis *)
Lemma migrate_line_cases st l :
  legacy_rest st l = None /\ migrate_line st l = l \/
  exists indent rest, Forall (fun c => is_blank c = true) indent /\ st = SCode /\
                      l = indent ++ old_prefix ++ rest /\ migrate_line st l = indent ++ new_prefix ++ rest.
Proof.
  unfold migrate_line. destruct (legacy_rest st l) as [rest|] eqn:L; [right|left; auto].
  destruct st; try discriminate. apply drop_prefix_some in L.
  exists (leading_blanks l), rest. rewrite <- L. auto using leading_blanks_blank, blanks_split.
Qed.

Lemma scan_line_migrated st l : scan_line st (migrate_line st l) = scan_line st l.
Proof.
  destruct (migrate_line_cases st l) as [[_ ->]|(indent & rest & B & -> & -> & ->)]; [reflexivity|].
  rewrite (scan_comment _ new_prefix _ B eq_refl). symmetry. exact (scan_comment _ old_prefix _ B eq_refl).
Qed.

Lemma migrated_not_legacy st l : legacy_rest st (migrate_line st l) = None.
Proof.
  destruct (migrate_line_cases st l) as [[N ->]|(indent & rest & B & -> & _ & ->)]; [exact N|].
  unfold legacy_rest. rewrite (trim_comment _ new_prefix _ B eq_refl). reflexivity.
Qed.

(* only legacy marker comment lines change, and only their prefix *)
Definition line_rel (a b : bytes) : Prop :=
  a = b \/
  exists indent rest, Forall (fun c => is_blank c = true) indent /\
                      a = indent ++ old_prefix ++ rest /\ b = indent ++ new_prefix ++ rest.

Lemma migrate_line_rel st l : line_rel l (migrate_line st l).
Proof.
  destruct (migrate_line_cases st l) as [[_ ->]|(indent & rest & B & _ & E & ->)]; [left; reflexivity|right; eauto].
Qed.

(* no line gains a newline *)
Lemma no_nl_prefix : ~ In nl new_prefix.
Proof. vm_compute. intuition discriminate. Qed.

Lemma line_rel_no_nl a b : line_rel a b -> ~ In nl a -> ~ In nl b.
Proof.
  intros [<-|(indent & rest & _ & -> & ->)] H; [exact H|]. rewrite !in_app_iff in *.
  intros [I|[I|I]]; [tauto|exact (no_nl_prefix I)|tauto].
Qed.

(* a line that starts inside a raw string or a block comment is never touched *)
Theorem migrate_line_inside st l : st <> SCode -> migrate_line st l = l.
Proof. intro H. destruct st; try reflexivity. congruence. Qed.

Theorem migrate_lines_rel st ls : Forall2 line_rel ls (migrate_lines st ls).
Proof.
  revert st. induction ls as [|l r IH]; intro st; [constructor|].
  constructor; [apply migrate_line_rel|apply IH].
Qed.

Lemma migrate_lines_no_nl st ls : Forall (fun x => ~ In nl x) ls -> Forall (fun x => ~ In nl x) (migrate_lines st ls).
Proof.
  intro H. revert st. induction H as [|l r Hl _ IH]; intro st; constructor; [|apply IH].
  exact (line_rel_no_nl _ _ (migrate_line_rel st l) Hl).
Qed.

Lemma migrate_lines_nonempty st ls : ls <> [] -> migrate_lines st ls <> [].
Proof. destruct ls; [congruence|discriminate]. Qed.

Lemma count_after st ls : count_legacy st (migrate_lines st ls) = 0.
Proof.
  revert st. induction ls as [|l r IH]; intro st; [reflexivity|].
  cbn [migrate_lines count_legacy]. rewrite migrated_not_legacy, scan_line_migrated. apply IH.
Qed.

Lemma count_zero_id st ls : count_legacy st ls = 0 -> migrate_lines st ls = ls.
Proof.
  revert st. induction ls as [|l r IH]; intros st H; [reflexivity|].
  cbn [count_legacy migrate_lines] in *. unfold migrate_line.
  destruct (legacy_rest st l); [discriminate|]. f_equal. apply IH. exact H.
Qed.

(* the lines of the migrated content are the migrated lines: line structure (count, hence every '\n',
   '\r' and the presence of a final newline) is preserved *)
Lemma split_migrate s : split_on nl (migrate_content s) = migrate_lines SCode (split_on nl s).
Proof.
  apply split_join.
  - apply migrate_lines_nonempty, split_on_nonempty.
  - apply migrate_lines_no_nl, split_no_sep.
Qed.

Theorem migrate_same_lines s :
  Forall2 line_rel (split_on nl s) (split_on nl (migrate_content s)).
Proof. rewrite split_migrate. apply migrate_lines_rel. Qed.

Theorem nothing_to_migrate s : migrate_count s = 0 -> migrate_content s = s.
Proof.
  intro H. unfold migrate_content. rewrite count_zero_id by exact H. apply join_split.
Qed.

Theorem migrate_then_nothing s : migrate_count (migrate_content s) = 0.
Proof. unfold migrate_count. rewrite split_migrate. apply count_after. Qed.

Theorem migrate_idempotent s : migrate_content (migrate_content s) = migrate_content s.
Proof. exact (nothing_to_migrate _ (migrate_then_nothing s)). Qed.

Theorem dry_run_writes_nothing s : migrate_file true s = [].
Proof. unfold migrate_file. destruct (Nat.eqb (migrate_count s) 0); reflexivity. Qed.

(* both sides evaluate to Some ("govalid:" ++ r) *)
Theorem spelling_equiv r : parse_marker_comment (old_prefix ++ r) = parse_marker_comment (new_prefix ++ r).
Proof. reflexivity. Qed.

(* the comment text of a doc line, in the other spelling *)
Definition to_new (c : bytes) : bytes :=
  match drop_prefix old_prefix c with Some r => new_prefix ++ r | None => c end.

Lemma parse_to_new c : parse_marker_comment (to_new c) = parse_marker_comment c.
Proof.
  unfold to_new. destruct (drop_prefix old_prefix c) as [r|] eqn:D; [|reflexivity].
  apply drop_prefix_some in D. subst. apply spelling_equiv.
Qed.

Theorem markers_to_new doc : markers_of_doc (map to_new doc) = markers_of_doc doc.
Proof.
  unfold markers_of_doc. generalize (@nil marker).
  induction doc as [|c r IH]; intro acc; [reflexivity|].
  cbn [map fold_left]. rewrite parse_to_new. apply IH.
Qed.

From GV Require Import Gen.Rules Gen.Template.

Fixpoint field_to_new (fd : field) : field :=
  match fd with
  | FPlain names doc t => FPlain names (map to_new doc) t
  | FNested names doc fs => FNested names (map to_new doc) (map field_to_new fs)
  end.

Definition sdecl_to_new (d : sdecl) : sdecl :=
  {| sd_name := sd_name d; sd_doc := map to_new (sd_doc d); sd_fields := map field_to_new (sd_fields d) |}.

Lemma sorted_to_new doc : sorted_markers (map to_new doc) = sorted_markers doc.
Proof. unfold sorted_markers. rewrite markers_to_new. reflexivity. Qed.

Lemma direct_fields_to_new fs : direct_fields (map field_to_new fs) = direct_fields fs.
Proof. apply flat_map_map_Forall, Forall_forall. intros [] _; reflexivity. Qed.

Lemma analyze_field_to_new tab tms S fd : forall parent,
  analyze_field tab tms S parent (field_to_new fd) = analyze_field tab tms S parent fd.
Proof.
  induction fd as [names doc t|names doc fs IH] using field_ind'; intro parent; cbn [field_to_new analyze_field];
    rewrite sorted_to_new; [reflexivity|].
  rewrite direct_fields_to_new. apply flat_map_ext. intro n. f_equal.
  (* the inner fixpoint of analyze_field is flat_map *)
  apply (flat_map_map_Forall field_to_new (analyze_field tab tms S (parent ++ [n])) (analyze_field tab tms S (parent ++ [n]))).
  revert IH. apply Forall_impl. auto.
Qed.

Theorem gen_file_spelling tab d : gen_file tab (sdecl_to_new d) = gen_file tab d.
Proof.
  unfold gen_file, analyze, sdecl_to_new. cbn [sd_name sd_doc sd_fields].
  rewrite sorted_to_new, (flat_map_map_Forall _ _ (analyze_field tab (sorted_markers (sd_doc d)) (sd_name d) [])); [reflexivity|].
  apply Forall_forall. intros fd _. apply analyze_field_to_new.
Qed.
